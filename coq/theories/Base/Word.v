(** Machine words as [N], bytes as [N] below 256, little-endian codecs, slices
    of lists. *)
From Coq Require Export List NArith ZArith Lia Bool.
From Coq Require Import ZifyBool ZifyN ZifyNat.
Export ListNotations.
Open Scope N_scope.

Arguments N.add : simpl never.
Arguments N.sub : simpl never.
Arguments N.mul : simpl never.
Arguments N.div : simpl never.
Arguments N.modulo : simpl never.
Arguments N.pow : simpl never.
Arguments N.eqb : simpl never.
Arguments N.ltb : simpl never.
Arguments N.leb : simpl never.

Definition byte := N.

Definition byte_ok (b : byte) : bool := b <? 256.
Definition bytes_ok (bs : list byte) : bool := forallb byte_ok bs.

Definition two8 : N := 256.
Definition two16 : N := 65536.
Definition two32 : N := 4294967296.
Definition two64 : N := 18446744073709551616.

Fixpoint le_enc (w : nat) (n : N) : list byte :=
  match w with
  | O => []
  | S w' => (n mod 256) :: le_enc w' (n / 256)
  end.

Fixpoint le_dec (bs : list byte) : N :=
  match bs with
  | [] => 0
  | b :: bs' => b + 256 * le_dec bs'
  end.

Definition pow256 (w : nat) : N := 256 ^ N.of_nat w.

Lemma pow256_S w : pow256 (S w) = 256 * pow256 w.
Proof. unfold pow256. rewrite Nat2N.inj_succ, N.pow_succ_r'. reflexivity. Qed.

Lemma pow256_0 : pow256 0 = 1.
Proof. reflexivity. Qed.

Lemma pow256_pos w : 0 < pow256 w.
Proof. unfold pow256. apply N.neq_0_lt_0, N.pow_nonzero. discriminate. Qed.

Lemma le_enc_length w n : length (le_enc w n) = w.
Proof. revert n; induction w as [|w IH]; intros n; cbn [le_enc length]; [reflexivity|now rewrite IH]. Qed.

Lemma bytes_ok_cons b bs : bytes_ok (b :: bs) = (b <? 256) && bytes_ok bs.
Proof. reflexivity. Qed.

Lemma bytes_ok_app a b : bytes_ok (a ++ b) = bytes_ok a && bytes_ok b.
Proof. unfold bytes_ok. apply forallb_app. Qed.

Lemma le_enc_ok w n : bytes_ok (le_enc w n) = true.
Proof.
  revert n; induction w as [|w IH]; intros n; cbn [le_enc]; [reflexivity|].
  rewrite bytes_ok_cons, IH, andb_true_r.
  apply N.ltb_lt. apply N.mod_lt. discriminate.
Qed.

Lemma le_dec_enc w n : le_dec (le_enc w n) = n mod pow256 w.
Proof.
  revert n; induction w as [|w IH]; intros n; cbn [le_enc le_dec].
  - rewrite pow256_0. now rewrite N.mod_1_r.
  - rewrite IH, pow256_S.
    pose proof (pow256_pos w) as Hp.
    rewrite N.mod_mul_r by lia. reflexivity.
Qed.

Lemma le_dec_enc_small w n : n < pow256 w -> le_dec (le_enc w n) = n.
Proof. intros H. rewrite le_dec_enc. now apply N.mod_small. Qed.

Lemma le_dec_bound bs : bytes_ok bs = true -> le_dec bs < pow256 (length bs).
Proof.
  induction bs as [|b bs IH]; intros H; cbn [le_dec length].
  - rewrite pow256_0. lia.
  - rewrite bytes_ok_cons in H. apply andb_true_iff in H as [Hb Hbs].
    apply N.ltb_lt in Hb. specialize (IH Hbs). rewrite pow256_S. lia.
Qed.

Lemma le_enc_dec bs : bytes_ok bs = true -> le_enc (length bs) (le_dec bs) = bs.
Proof.
  induction bs as [|b bs IH]; intros H; cbn [le_dec length le_enc]; [reflexivity|].
  rewrite bytes_ok_cons in H. apply andb_true_iff in H as [Hb Hbs].
  apply N.ltb_lt in Hb. specialize (IH Hbs).
  rewrite (N.mul_comm 256), N.mod_add, N.div_add by discriminate.
  now rewrite N.mod_small, N.div_small, N.add_0_l, IH.
Qed.

Lemma le_enc_inj w a b : a < pow256 w -> b < pow256 w -> le_enc w a = le_enc w b -> a = b.
Proof.
  intros Ha Hb H. rewrite <- (le_dec_enc_small w a Ha), <- (le_dec_enc_small w b Hb). now rewrite H.
Qed.

Lemma pow256_1 : pow256 1 = 256. Proof. reflexivity. Qed.
Lemma pow256_2 : pow256 2 = two16. Proof. reflexivity. Qed.
Lemma pow256_4 : pow256 4 = two32. Proof. reflexivity. Qed.
Lemma pow256_8 : pow256 8 = two64. Proof. reflexivity. Qed.

Lemma fold_left_invariant {A B} (f : A -> B -> A) (P : A -> Prop) l :
  (forall a b, In b l -> P a -> P (f a b)) -> forall a, P a -> P (fold_left f l a).
Proof.
  induction l as [|b l IH]; intros Hstep a H; [exact H|].
  apply IH; [intros a' b' Hin; apply Hstep; now right|].
  apply Hstep; [now left|exact H].
Qed.

Lemma firstn_app_exact {A} (x y : list A) : firstn (length x) (x ++ y) = x.
Proof. induction x as [|a x IH]; cbn [length firstn app]; [now destruct y|now rewrite IH]. Qed.

Lemma skipn_app_exact {A} (x y : list A) : skipn (length x) (x ++ y) = y.
Proof. induction x as [|a x IH]; cbn [length skipn app]; [reflexivity|exact IH]. Qed.

Lemma firstn_plus {A} n m (l : list A) : firstn (n + m) l = firstn n l ++ firstn m (skipn n l).
Proof.
  revert l; induction n as [|n IH]; intros l; cbn [Nat.add firstn skipn app]; [reflexivity|].
  destruct l as [|x l]; cbn [firstn skipn app].
  - now destruct m.
  - now rewrite IH.
Qed.

Lemma skipn_plus {A} n m (l : list A) : skipn (n + m) l = skipn m (skipn n l).
Proof.
  revert l; induction n as [|n IH]; intros l; cbn [Nat.add skipn]; [reflexivity|].
  destruct l as [|x l]; [now destruct m|apply IH].
Qed.

(** Slices as Rust sees them: [slice bs a b] is [bs[a..b]] when [a <= b <= len]. *)
Definition slice {A} (bs : list A) (a b : nat) : list A := firstn (b - a) (skipn a bs).

Lemma slice_length {A} (bs : list A) a b :
  (a <= b)%nat -> (b <= length bs)%nat -> length (slice bs a b) = (b - a)%nat.
Proof. intros H1 H2. unfold slice. rewrite firstn_length, skipn_length. lia. Qed.

Lemma slice_add {A} (bs : list A) o n : slice bs o (o + n) = firstn n (skipn o bs).
Proof. unfold slice. now rewrite (Nat.add_comm o), Nat.add_sub. Qed.

Lemma slice_0_firstn {A} (bs : list A) n : slice bs 0 n = firstn n bs.
Proof. apply (slice_add bs 0). Qed.

Lemma slice_all {A} (x : list A) n : n = length x -> slice x 0 n = x.
Proof. intros ->. rewrite slice_0_firstn. apply firstn_all. Qed.

Lemma slice_mid {A} (pre x post : list A) a b :
  a = length pre -> b = (a + length x)%nat -> slice (pre ++ x ++ post) a b = x.
Proof. intros -> ->. now rewrite slice_add, skipn_app_exact, firstn_app_exact. Qed.

Lemma firstn_slice {A} (bs : list A) a n : firstn a bs ++ slice bs a (a + n) = firstn (a + n) bs.
Proof. now rewrite slice_add, firstn_plus. Qed.

Lemma bytes_ok_firstn n bs : bytes_ok bs = true -> bytes_ok (firstn n bs) = true.
Proof. intros H. rewrite <- (firstn_skipn n bs), bytes_ok_app in H. now apply andb_true_iff in H. Qed.

Lemma bytes_ok_skipn n bs : bytes_ok bs = true -> bytes_ok (skipn n bs) = true.
Proof. intros H. rewrite <- (firstn_skipn n bs), bytes_ok_app in H. now apply andb_true_iff in H. Qed.

Lemma bytes_ok_slice bs a b : bytes_ok bs = true -> bytes_ok (slice bs a b) = true.
Proof. intros H. unfold slice. now apply bytes_ok_firstn, bytes_ok_skipn. Qed.
