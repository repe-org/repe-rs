(** Outcomes of modelled Rust functions: a value, a returned error, a panic
    (unwinding) or a process abort.  Properties such as C02 are statements
    that [Panic]/[Abort] are unreachable. *)
From RepeV Require Export Base.Word.

Inductive err : Set :=
| EHeaderLen      (* RepeError::InvalidHeaderLength *)
| ESpec           (* RepeError::InvalidSpec *)
| ELenMismatch    (* RepeError::LengthMismatch *)
| EBufSmall       (* RepeError::BufferTooSmall *)
| EEof            (* RepeError::Io(UnexpectedEof) *)
| EOom            (* RepeError::Io(OutOfMemory) *)
| EOther.         (* any other error value *)

Inductive outcome (A : Type) : Type :=
| Ok (a : A)
| Err (e : err)
| Panic
| Abort.
Arguments Ok {A} a.
Arguments Err {A} e.
Arguments Panic {A}.
Arguments Abort {A}.

Definition bind {A B} (x : outcome A) (f : A -> outcome B) : outcome B :=
  match x with
  | Ok a => f a
  | Err e => Err e
  | Panic => Panic
  | Abort => Abort
  end.

Notation "'do' x <- e ; f" := (bind e (fun x => f))
  (at level 200, x name, e at level 100, f at level 200, right associativity).

Definition crashes {A} (x : outcome A) : bool :=
  match x with Panic | Abort => true | _ => false end.

Definition err_eqb (a b : err) : bool :=
  match a, b with
  | EHeaderLen, EHeaderLen | ESpec, ESpec | ELenMismatch, ELenMismatch
  | EBufSmall, EBufSmall | EEof, EEof | EOom, EOom | EOther, EOther => true
  | _, _ => false
  end.

(** Rust [usize]/[u64] [+] with overflow checks on (debug profile): panics on
    wrap.  A function proved panic-free under this semantics computes the same
    values with the checks off (release profile). *)
Definition add64 (a b : N) : outcome N :=
  if a + b <? two64 then Ok (a + b) else Panic.

(** [u64::checked_add] *)
Definition checked_add64 (a b : N) : option N :=
  if a + b <? two64 then Some (a + b) else None.

(** [&buf[a..b]] with the bounds checks of core::slice::index *)
Definition slice_chk {A} (bs : list A) (a b : N) : outcome (list A) :=
  if (a <=? b) && (b <=? N.of_nat (length bs))
  then Ok (slice bs (N.to_nat a) (N.to_nat b))
  else Panic.

Lemma bind_ok {A B} (x : outcome A) (f : A -> outcome B) b :
  bind x f = Ok b -> exists a, x = Ok a /\ f a = Ok b.
Proof. destruct x; cbn; intros H; try discriminate. eauto. Qed.

Lemma bind_crashes {A B} (x : outcome A) (f : A -> outcome B) :
  crashes x = false -> (forall a, crashes (f a) = false) -> crashes (bind x f) = false.
Proof. destruct x; cbn; intros H Hf; auto. Qed.

Lemma slice_prefix {A} (l : list A) n : (n <= length l)%nat -> slice_chk l 0 (N.of_nat n) = Ok (firstn n l).
Proof.
  intros H. unfold slice_chk. replace ((0 <=? N.of_nat n) && (N.of_nat n <=? N.of_nat (length l))) with true by lia.
  unfold slice. rewrite Nat2N.id. change (N.to_nat 0) with 0%nat. cbn [skipn]. rewrite Nat.sub_0_r. reflexivity.
Qed.
