(** Agreement of the hand-written models of the stream readers (Model/Message.v,
    Section Readers: [read_message], [read_message_into], [alloc]) with the Gallina
    rendering that bin/rs2v regenerates from /repo/src/io.rs on every run
    (Gen/ReadersGen.v).  Oracles: the remaining byte stream ([read_exact] of the
    model is ONE [read_exact(r, ..)] of the code) and the allocator ([can_alloc]:
    [try_reserve_exact] asks it for the new total length; spare capacity is not
    modelled).  The statements are equalities of outcomes for every stream and
    every allocator, [Panic] branches included.  A function that could not be
    translated is [None] and its lemma degrades to [True]. *)
From RepeV Require Import Model.Message Proofs.HeaderProofs Proofs.MessageProofs Base.GenVecPrelude Gen.FrameGen Gen.ReadersGen.
From RepeV Require Export Proofs.FrameGenAgree.
From Coq Require Import ZifyBool.

Lemma slice_tail_chk (x y : list byte) a b : a = lenN x -> b = lenN (x ++ y) -> slice_chk (x ++ y) a b = Ok y.
Proof. intros -> ->. rewrite <- (app_nil_r y) at 1. apply slice_chk_mid; [reflexivity | apply lenN_app]. Qed.

Lemma copy_chk_tail (x y src : list byte) a b :
  a = lenN x -> b = lenN (x ++ y) -> lenN src = lenN y -> copy_chk (x ++ y) a b src = Ok (x ++ src).
Proof.
  intros -> -> Hs. pose proof (copy_chk_mid x y [] src _ _ eq_refl eq_refl Hs) as H.
  now rewrite !app_nil_r, <- lenN_app in H.
Qed.

Lemma slice_all_chk (v : list byte) n : n = lenN v -> slice_chk v 0 n = Ok v.
Proof. intros ->. exact (slice_tail_chk [] v _ _ eq_refl eq_refl). Qed.

Lemma copy_chk_all (v src : list byte) n : n = lenN v -> lenN src = lenN v -> copy_chk v 0 n src = Ok src.
Proof. intros ->. exact (copy_chk_tail [] v src _ _ eq_refl eq_refl). Qed.

(** the allocator is asked for the new total length ([max] because [try_reserve_exact] is given the
    saturating difference to the current length), then the buffer is resized with zeros *)
Lemma grow_zeroed_agrees :
  match gen_grow_zeroed with
  | Some f => forall can_alloc buf n, lenN buf < two64 -> n < two64 ->
      f can_alloc buf n = (do _ <- alloc can_alloc (N.max (lenN buf) n); Ok (vec_resize buf n 0))
  | None => True
  end.
Proof.
  gen_start. all: intros can_alloc buf n Hb Hn; unfold try_reserve_or, alloc; cbv zeta.
  all: replace (lenN buf + (n - lenN buf)) with (N.max (lenN buf) n) by lia.
  all: replace (N.max (lenN buf) n <? two64) with true by lia; cbn [andb].
  all: destruct (can_alloc (N.max (lenN buf) n)); reflexivity.
Qed.

Lemma zeroed_payload_agrees :
  match gen_zeroed_payload with
  | Some f => forall can_alloc n, n < two64 ->
      f can_alloc n = (do _ <- alloc can_alloc n; Ok (repeat 0 (N.to_nat n)))
  | None => True
  end.
Proof.
  pose proof grow_zeroed_agrees as Hg.
  gen_start. all: intros can_alloc n Hn; callee Hg; cbv zeta.
  all: rewrite Hg by (try exact Hn; unfold lenN; cbn [length]; lia).
  all: replace (N.max (lenN (@nil byte)) n) with n by (unfold lenN; cbn [length]; lia).
  all: rewrite vec_resize_nil; destruct (alloc can_alloc n) as [[]| | |]; reflexivity.
Qed.

Lemma fill_zeros src n : read_exact_fill src (repeat 0 (N.to_nat n)) = read_exact src n.
Proof. unfold read_exact_fill. now rewrite lenN_repeat, N2Nat.id. Qed.

(** A payload buffer of [n] zeros is filled from the stream unless it is empty, and either way the
    code goes on in the same way [K]: that is the model's optional read.  [t] is the code's
    emptiness test, in whichever form it is written. *)
Lemma fill_zeroed {B} src n (t : bool) (K : list byte -> list byte -> outcome B) :
  t = negb (n =? 0) ->
  (if t then (do rt <- read_exact_fill src (repeat 0 (N.to_nat n)); let '(b, s) := rt in K b s)
   else K (repeat 0 (N.to_nat n)) src) =
  (do r <- (if n =? 0 then Ok ([], src) else read_exact src n); let '(b, s) := r in K b s).
Proof. intros ->. rewrite fill_zeros. destruct (N.eqb_spec n 0) as [->|]; reflexivity. Qed.

Lemma read_message_agrees : agrees2 gen_read_message read_message.
Proof.
  pose proof decode_agrees as Hd. pose proof msg_new_agrees_small as Hn. pose proof zeroed_payload_agrees as Hz.
  gen_start. all: intros can_alloc src; callee Hd; callee Hn; callee Hz; unfold read_message; cbv zeta.
  all: rewrite fill_zeros.
  all: destruct (read_exact src HEADER_SIZE) as [[hb s1]| | |]; cbn [bind]; try reflexivity.
  all: rewrite Hd; destruct (decode hb) as [h| | |] eqn:Hh; cbn [bind]; try reflexivity.
  all: apply decode_ok_spec in Hh as (_ & _ & _ & Hlen & Hlt).
  all: rewrite !Hz by (unfold HEADER_SIZE in *; lia).
  all: destruct (alloc can_alloc (h_qlen h)) as [[]| | |]; cbn [bind]; try reflexivity.
  all: rewrite fill_zeroed by (rewrite lenN_repeat, N2Nat.id; lia).
  all: destruct (if h_qlen h =? 0 then _ else _) as [[q s2]| | |] eqn:Hq; cbn [bind]; try reflexivity.
  all: apply read_opt_ok in Hq as (_ & Lq).
  all: destruct (alloc can_alloc (h_blen h)) as [[]| | |]; cbn [bind]; try reflexivity.
  all: rewrite fill_zeroed by (rewrite lenN_repeat, N2Nat.id; lia).
  all: destruct (if h_blen h =? 0 then _ else _) as [[b s3]| | |] eqn:Hb; cbn [bind]; try reflexivity.
  all: apply read_opt_ok in Hb as (_ & Lb).
  all: rewrite Hn by lia; reflexivity.
Qed.

(** read_message_into: the buffer passed in is cleared first, so its contents do not matter *)
Lemma read_message_into_agrees :
  match gen_read_message_into with
  | Some f => forall can_alloc buf src, f can_alloc buf src = read_message_into can_alloc src
  | None => True
  end.
Proof.
  pose proof decode_agrees as Hd. pose proof grow_zeroed_agrees as Hg.
  gen_start. all: intros can_alloc buf0 src; callee Hd; callee Hg; unfold read_message_into, read_exact_fill; cbv zeta.
  (* the cleared buffer is filled by `resize(HEADER_SIZE, 0)` or by appending a zeroed array: both are 48 zeros *)
  all: rewrite ?vec_resize_nil; cbn [app]; change (N.to_nat HEADER_SIZE) with 48%nat.
  all: rewrite slice_all_chk by (now rewrite lenN_repeat); cbn [bind]; rewrite lenN_repeat; change (N.of_nat 48) with HEADER_SIZE.
  all: destruct (read_exact src HEADER_SIZE) as [[hb s1]| | |] eqn:H0; cbn [bind]; try reflexivity.
  all: apply read_exact_ok in H0 as (_ & Lh).
  all: rewrite copy_chk_all by (rewrite ?lenN_repeat; len_lia); cbn [bind].
  all: rewrite slice_all_chk by len_lia; cbn [bind].
  all: rewrite Hd; destruct (decode hb) as [h| | |] eqn:Hh; cbn [bind]; try reflexivity.
  all: apply decode_ok_spec in Hh as (_ & _ & _ & Hlen & Hlt).
  all: rewrite Hg by len_lia.
  all: replace (N.max (lenN hb) (h_length h)) with (h_length h) by len_lia.
  all: destruct (alloc can_alloc (h_length h)) as [[]| | |]; cbn [bind]; try reflexivity.
  all: rewrite vec_resize_grow by len_lia.
  all: rewrite slice_tail_chk by (trivial; len_lia); cbn [bind]; rewrite lenN_repeat.
  all: replace (N.of_nat (N.to_nat (h_length h) - length hb)) with (h_length h - HEADER_SIZE) by len_lia.
  all: destruct (read_exact s1 (h_length h - HEADER_SIZE)) as [[rest s2]| | |] eqn:H1; cbn [bind]; try reflexivity.
  all: apply read_exact_ok in H1 as (_ & Lr).
  all: rewrite copy_chk_tail by (trivial; rewrite ?lenN_repeat; len_lia); reflexivity.
Qed.
