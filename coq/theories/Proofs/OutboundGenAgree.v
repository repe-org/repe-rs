(** Agreement of the model of the outbound size guard's caller (Model/Limits.v: property C17)
    with the Gallina renderings of WebSocketLimits::check_outbound (its error payload kept) and of
    frame_outbound that bin/rs2v regenerates from /repo/src/websocket_limits.rs and
    /repo/src/websocket_server.rs on every run (Gen/OutboundGen.v).  A function that could not be
    translated is [None] and its lemma degrades to [True].

    frame_outbound's rendering threads [reports], the list of what was handed to the error hooks
    (one entry per [report_error] call); the replacement is built by the rendering of
    create_error_message (Gen/ErrMsgGen.v); its two oracles are [fmt_text] (what [format!] makes of
    its numeric arguments -- the statement assumes it is the model's [replacement_text]) and
    [cap_of] (the capacity of a message's body vector: the result does not depend on it). *)
From RepeV Require Import Model.Limits Base.GenOutboundPrelude Gen.BuildGen Gen.ErrMsgGen Gen.OutboundGen.
From RepeV Require Import Proofs.MessageProofs Proofs.LimitsProofs Proofs.BuildGenAgree.
From RepeV Require Export Proofs.ErrMsgGenAgree.
From RepeV Require Export Proofs.GenAgreeBase.
From Coq Require Import ZifyBool Lia.

Local Open Scope N_scope.

(** the length the guard is asked about: what [into_wire_bytes] emits *)
Definition frame_len (m : message) : N := HEADER_SIZE + lenN (m_query m) + lenN (m_body m).
(** what reaches the error hooks for message [m] under limit [lim]: ONE report carrying the
    framed length and the limit when the message is refused, nothing otherwise *)
Definition reports_of (lim : option N) (m : message) : list report :=
  match lim with
  | Some l => if l <? frame_len m then [R_OutboundTooLarge (frame_len m) l] else []
  | None => []
  end.

(** [check_outbound]: [Ok(())] exactly when the model's [check_outbound] lets the message pass,
    else [Err(MessageTooLarge { size, limit })] with the size asked about and the limit.
    Gen/LimitsGen.v renders the same function with the error's payload dropped
    (LimitsGenAgree.[check_outbound_agrees], by the same case analysis); [frame_outbound] hands
    the payload to the error hooks, hence this rendering. *)
Lemma check_outbound_r_agrees :
  match gen_check_outbound_r with
  | Some f => forall l size,
      f l size = Ok (match l_peer l with
                     | Some lim => if check_outbound (Some lim) size then ROk tt else RErr (E_MessageTooLarge size lim)
                     | None => ROk tt
                     end, l)
  | None => True
  end.
Proof.
  gen_start. all: intros l size; unfold check_outbound; destruct (l_peer l) as [lim|]; [|reflexivity].
  all: repeat match goal with |- context [if ?b then _ else _] => destruct b eqn:? end.
  all: try reflexivity; try discriminate; exfalso; lia.
Qed.

Lemma error_message_replacement id size limit :
  set_m_hdr (error_message ERRC_InternalError (replacement_text size limit))
            (set_h_id (m_hdr (error_message ERRC_InternalError (replacement_text size limit))) id) =
  replacement id size limit.
Proof. reflexivity. Qed.

(** [frame_outbound]: the bytes put on the wire are the model's, and the error hooks are told
    exactly once per refused message (never for one that passes), with the framed length and
    the limit *)
Lemma frame_outbound_agrees :
  match gen_frame_outbound with
  | Some f => forall fmt cap_of reports m l,
      (forall s li, fmt [s; li] = replacement_text s li) ->
      h_version (m_hdr m) < 256 -> h_notify (m_hdr m) < 256 -> frame_len m < two64 ->
      f fmt cap_of reports m l =
      Ok (fst (frame_outbound (l_peer l) m), reports ++ reports_of (l_peer l) m)
  | None => True
  end.
Proof.
  pose proof check_outbound_r_agrees as Hc. pose proof into_wire_bytes_small as Hw. pose proof create_error_message_agrees as Hm. gen_start.
  all: intros fmt cap_of reports m l Hfmt Hv Hn Hlen; callee Hc; callee Hw; callee Hm; unfold frame_len in *.
  all: change (@len_n byte) with (@lenN byte) in *.
  all: rewrite add64_ok by lia; cbn [bind]; rewrite add64_ok by lia; cbn [bind].
  all: rewrite Hc; cbn [bind]; unfold frame_outbound, reports_of, frame_len, check_outbound; cbv zeta; rewrite !into_wire_bytes_eq.
  all: destruct (l_peer l) as [lim|]; [destruct (lim <? HEADER_SIZE + lenN (m_query m) + lenN (m_body m)) eqn:E; cbn [negb]|].
  all: try (rewrite Hw by assumption; cbn [bind fst]; rewrite app_nil_r; reflexivity).
  all: rewrite ?(N.eqb_sym 0 (h_notify (m_hdr m))); destruct (negb (h_notify (m_hdr m) =? 0)); [reflexivity|].
  all: pose proof (replacement_text_bounds (HEADER_SIZE + lenN (m_query m) + lenN (m_body m)) lim) as Hb.
  all: rewrite Hfmt, Hm by (unfold lenN, HEADER_SIZE, two64 in *; lia); cbn [bind].
  all: rewrite error_message_replacement, Hw
         by (cbn [replacement m_hdr m_query m_body h_version h_notify]; unfold REPE_VERSION, lenN, HEADER_SIZE, two64 in *; cbn [length]; lia).
  all: reflexivity.
Qed.

Lemma c17_reports_of_model lim m :
  length (reports_of lim m) = if snd (frame_outbound lim m) then 1%nat else 0%nat.
Proof.
  unfold reports_of, frame_outbound, frame_len. cbv zeta. destruct lim as [l|]; [|reflexivity].
  destruct (l <? HEADER_SIZE + lenN (m_query m) + lenN (m_body m)); [|reflexivity]. destruct (negb _); reflexivity.
Qed.
