(** Lemmas on byte strings, object maps, N-indexed lists and JSON values. *)
From RepeV Require Import Model.Json.

(** induction that also gives the tail of the tail, for the functions that consume an escape
    pair in one step *)
Lemma list_ind2 {A} (P : list A -> Prop) :
  P [] -> (forall x l, P l -> (forall y l', l = y :: l' -> P l') -> P (x :: l)) -> forall l, P l.
Proof.
  intros H0 H l. enough (P l /\ forall y l', l = y :: l' -> P l') as [Hl _] by exact Hl.
  induction l as [|x l [IH IH']]; (split; [auto|]); [discriminate|]. now intros y l' [= <- <-].
Qed.

Lemma str_eqb_spec a b : reflect (a = b) (str_eqb a b).
Proof.
  revert b; induction a as [|x a IH]; intros [|y b]; cbn [str_eqb]; try (constructor; congruence).
  destruct (N.eqb_spec x y) as [->|N]; [|constructor; congruence].
  destruct (IH b) as [->|N]; constructor; congruence.
Qed.

Lemma str_eqb_refl a : str_eqb a a = true.
Proof. now destruct (str_eqb_spec a a). Qed.

Lemma str_eqb_sym a b : str_eqb a b = str_eqb b a.
Proof. destruct (str_eqb_spec a b), (str_eqb_spec b a); congruence. Qed.

Lemma str_ltb_irrefl a : str_ltb a a = false.
Proof.
  induction a as [|x a IH]; cbn [str_ltb]; [reflexivity|].
  rewrite IH, N.ltb_irrefl, andb_false_r. reflexivity.
Qed.

Lemma oget_oset m k v k' : oget (oset m k v) k' = if str_eqb k k' then Some v else oget m k'.
Proof.
  induction m as [|[k0 v0] m IH]; cbn [oset oget]; [reflexivity|].
  destruct (str_eqb_spec k0 k) as [->|N]; [cbn [oget]; destruct (str_eqb k k'); reflexivity|].
  destruct (str_ltb k k0); cbn [oget]; [reflexivity|].
  rewrite IH. destruct (str_eqb_spec k k') as [->|]; [|reflexivity].
  destruct (str_eqb_spec k0 k'); [contradiction|reflexivity].
Qed.

Lemma oset_oset m k a b : oset (oset m k a) k b = oset m k b.
Proof.
  induction m as [|[k' v'] m IH]; cbn [oset]; [now rewrite str_eqb_refl|].
  destruct (str_eqb k' k) eqn:E; [cbn [oset]; now rewrite str_eqb_refl|].
  destruct (str_ltb k k') eqn:L; cbn [oset]; [now rewrite str_eqb_refl|now rewrite E, L, IH].
Qed.

Lemma oget_app m1 m2 k :
  oget (m1 ++ m2) k = match oget m1 k with Some v => Some v | None => oget m2 k end.
Proof.
  induction m1 as [|[k' v'] m1 IH]; cbn [app oget]; [reflexivity|].
  destruct (str_eqb k' k); [reflexivity|exact IH].
Qed.

(** merging: the last binding of a key in the merged object wins, other keys stay *)
Lemma oget_omerge o : forall m k,
  oget (omerge m o) k = match oget (rev o) k with Some v => Some v | None => oget m k end.
Proof.
  unfold omerge. induction o as [|[k0 v0] o IH]; intros m k; cbn [fold_left rev fst snd]; [reflexivity|].
  rewrite IH, oget_app. destruct (oget (rev o) k); [reflexivity|].
  cbn [oget]. rewrite oget_oset. destruct (str_eqb k0 k); reflexivity.
Qed.

Lemma nthN_setN_same {A} (l : list A) : forall i v x, nthN l i = Some x -> nthN (setN l i v) i = Some v.
Proof.
  induction l as [|y l IH]; intros i v x H; cbn [nthN setN] in *; [discriminate|].
  destruct (i =? 0) eqn:E; cbn [nthN]; rewrite E; [reflexivity|]. eapply IH; eauto.
Qed.

Lemma nthN_setN_other {A} (l : list A) : forall i j v, i <> j -> nthN (setN l i v) j = nthN l j.
Proof.
  induction l as [|y l IH]; intros i j v H; cbn [nthN setN]; [reflexivity|].
  destruct (N.eqb_spec i 0) as [->|Hi]; cbn [nthN]; destruct (N.eqb_spec j 0) as [->|Hj];
    try reflexivity; [congruence|]. apply IH. rewrite !N.sub_1_r. intros E. now apply H, N.pred_inj.
Qed.

Lemma contains_cons c b s : contains c (b :: s) = (b =? c) || contains c s.
Proof. reflexivity. Qed.

Lemma contains_app c a b : contains c (a ++ b) = contains c a || contains c b.
Proof. unfold contains. apply existsb_app. Qed.

Lemma contains_cons_false c b s : contains c (b :: s) = false -> (b =? c) = false /\ contains c s = false.
Proof. apply orb_false_iff. Qed.

Lemma split_on_nonempty c s : split_on c s <> [].
Proof.
  destruct s as [|b s]; cbn [split_on]; [discriminate|].
  destruct (b =? c); [discriminate|]. destruct (split_on c s); discriminate.
Qed.

Lemma flat_split c s : flat_map (cons c) (split_on c s) = c :: s.
Proof.
  induction s as [|b s IH]; cbn [split_on]; [reflexivity|].
  destruct (N.eqb_spec b c) as [->|_]; [cbn [flat_map app]; now rewrite IH|].
  destruct (split_on c s) as [|t ts]; [discriminate|].
  cbn [flat_map app] in *. now injection IH as ->.
Qed.

Lemma split_on_free c s : contains c s = false -> split_on c s = [s].
Proof.
  induction s as [|b s IH]; intros H; cbn [split_on]; [reflexivity|].
  apply contains_cons_false in H as [H1 H2]. rewrite H1, (IH H2). reflexivity.
Qed.

Lemma split_on_app_free c t s :
  contains c t = false -> split_on c (t ++ c :: s) = t :: split_on c s.
Proof.
  induction t as [|b t IH]; intros H; cbn [app split_on]; [now rewrite N.eqb_refl|].
  apply contains_cons_false in H as [H1 H2]. rewrite H1, (IH H2). reflexivity.
Qed.

Lemma split_flat c l : Forall (fun u => contains c u = false) l ->
  forall t, contains c t = false -> split_on c (t ++ flat_map (cons c) l) = t :: l.
Proof.
  induction 1 as [|u l Hu _ IH]; intros t Ht; cbn [flat_map app].
  - rewrite app_nil_r. now apply split_on_free.
  - rewrite split_on_app_free, IH by assumption. reflexivity.
Qed.

Lemma split_pieces c s d :
  d = c \/ contains d s = false -> Forall (fun t => contains d t = false) (split_on c s).
Proof.
  induction s as [|b s IH]; intros H; cbn [split_on]; [repeat constructor|].
  assert (H' : d = c \/ contains d s = false)
    by (destruct H as [H|H]; [now left|right; now apply contains_cons_false in H]).
  specialize (IH H'). destruct (b =? c) eqn:E; [constructor; [reflexivity|exact IH]|].
  pose proof (split_on_nonempty c s). destruct (split_on c s) as [|t ts]; [contradiction|].
  constructor; [|exact (Forall_inv_tail IH)]. rewrite contains_cons, (Forall_inv IH), orb_false_r.
  destruct H as [->|H]; [exact E|now apply contains_cons_false in H].
Qed.

Lemma replace1_free c r s : contains c s = false -> replace1 c r s = s.
Proof.
  induction s as [|b s IH]; intros H; cbn [replace1]; [reflexivity|].
  apply contains_cons_false in H as [H1 H2]. rewrite H1, (IH H2). reflexivity.
Qed.

Lemma replace2_cons_other a b r x s : x <> a -> replace2 a b r (x :: s) = x :: replace2 a b r s.
Proof.
  intros H. cbn [replace2]. destruct s as [|y s]; [reflexivity|].
  destruct (N.eqb_spec x a); [contradiction|reflexivity].
Qed.

Lemma replace2_hit a b r s : replace2 a b r (a :: b :: s) = r :: replace2 a b r s.
Proof. cbn [replace2]. now rewrite !N.eqb_refl. Qed.

Lemma replace2_cons_other2 a b r y s : y <> b -> replace2 a b r (a :: y :: s) = a :: replace2 a b r (y :: s).
Proof.
  intros H. cbn [replace2]. destruct (N.eqb_spec y b); [contradiction|].
  rewrite andb_false_r. reflexivity.
Qed.

Section JsonInd.
  Variable P : json -> Prop.
  Hypothesis Hnull : P JNull.
  Hypothesis Hbool : forall b, P (JBool b).
  Hypothesis Hnum : forall n, P (JNum n).
  Hypothesis Hstr : forall s, P (JStr s).
  Hypothesis Harr : forall l, Forall P l -> P (JArr l).
  Hypothesis Hobj : forall m, Forall (fun kv => P (snd kv)) m -> P (JObj m).

  Fixpoint json_ind' (j : json) : P j :=
    match j with
    | JNull => Hnull
    | JBool b => Hbool b
    | JNum n => Hnum n
    | JStr s => Hstr s
    | JArr l => Harr l ((fix go (l : list json) : Forall P l :=
                           match l with [] => Forall_nil _ | x :: l' => Forall_cons _ (json_ind' x) (go l') end) l)
    | JObj m => Hobj m ((fix go (m : omap) : Forall (fun kv => P (snd kv)) m :=
                           match m with
                           | [] => Forall_nil _
                           | (k, x) :: m' => Forall_cons (k, x) (json_ind' x) (go m')
                           end) m)
    end.
End JsonInd.

Lemma json_eqb_dec a : forall b, if json_eqb a b then a = b else a <> b.
Proof.
  induction a as [| | | |l IH|m IH] using json_ind'; intros [| | | |l'|m']; cbn [json_eqb]; try discriminate.
  - reflexivity.
  - destruct b, b0; cbn [Bool.eqb]; congruence.
  - destruct (N.eqb_spec n n0); congruence.
  - destruct (str_eqb_spec s s0); congruence.
  - revert l'; induction IH as [|x l Hx _ IHl]; intros [|y l']; try congruence.
    specialize (Hx y). destruct (json_eqb x y); cbn [andb]; [subst y|congruence].
    specialize (IHl l'). destruct (_ l l'); congruence.
  - revert m'; induction IH as [|[k x] m Hx _ IHm]; intros [|[k' y] m']; try congruence.
    destruct (str_eqb_spec k k') as [->|]; cbn [andb]; [|congruence].
    specialize (Hx y). cbn [snd] in Hx. destruct (json_eqb x y); cbn [andb]; [subst y|congruence].
    specialize (IHm m'). destruct (_ m m'); congruence.
Qed.

Lemma json_eqb_spec a b : reflect (a = b) (json_eqb a b).
Proof. pose proof (json_eqb_dec a b). destruct (json_eqb a b); now constructor. Qed.

Lemma json_eqb_refl a : json_eqb a a = true.
Proof. now destruct (json_eqb_spec a a). Qed.

Lemma leqb_spec {A} (eqb : A -> A -> bool) :
  (forall x y, reflect (x = y) (eqb x y)) -> forall a b, reflect (a = b) (leqb eqb a b).
Proof.
  intros H. induction a as [|x a IH]; intros [|y b]; cbn [leqb]; try (constructor; congruence).
  destruct (H x y) as [->|]; [|constructor; congruence].
  destruct (IH b); constructor; congruence.
Qed.
