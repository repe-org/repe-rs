(** The outbound size guard (Model/Limits.v).  A replacement frame fits
    [replacement_bound] bytes; [frame_outbound] and [client_send] are settled by
    cases on the limit.  The byte-level [model_C17] then computes what the
    sizes-only [model_C17_abs] (the one the driver runs) says, and the oracle
    accepts it: both for every offered message that is not byte for byte the
    replacement that would be made for it ([not_self_replacement];
    [c17_self_replacement] is a message that is). *)
From RepeV Require Import Model.Limits Proofs.HeaderProofs Proofs.MessageProofs.
From Coq Require Import ZifyBool ZifyN ZifyNat.

Lemma dec_digits_S f n acc :
  dec_digits (S f) n acc =
  if n / 10 =? 0 then (48 + n mod 10) :: acc else dec_digits f (n / 10) ((48 + n mod 10) :: acc).
Proof. reflexivity. Qed.

Lemma dec_digits_length fuel : forall n acc,
  (length acc <= length (dec_digits fuel n acc) <= fuel + length acc)%nat.
Proof.
  induction fuel as [|f IH]; intros n acc.
  - split; apply le_n.
  - rewrite dec_digits_S. destruct (n / 10 =? 0).
    + split; [apply le_S, le_n|apply le_n_S, Nat.le_add_l].
    + destruct (IH (n / 10) ((48 + n mod 10) :: acc)) as [H1 H2]. cbn [length] in H1, H2.
      split; [exact (Nat.le_trans _ _ _ (le_S _ _ (le_n _)) H1)|].
      rewrite Nat.add_succ_r in H2. exact H2.
Qed.

Lemma dec_digits_ok fuel : forall n acc,
  bytes_ok acc = true -> bytes_ok (dec_digits fuel n acc) = true.
Proof.
  induction fuel as [|f IH]; intros n acc Hacc.
  - exact Hacc.
  - rewrite dec_digits_S.
    assert (bytes_ok ((48 + n mod 10) :: acc) = true) as Hacc'.
    { rewrite bytes_ok_cons, Hacc, andb_true_r.
      pose proof (N.mod_lt n 10 ltac:(discriminate)) as Hm.
      apply N.ltb_lt. generalize dependent (n mod 10). intros x Hx. lia. }
    destruct (n / 10 =? 0); [exact Hacc'|]. apply IH. exact Hacc'.
Qed.

Lemma dec_length_le n : (length (dec n) <= 20)%nat.
Proof. exact (proj2 (dec_digits_length 20 n [])). Qed.

Lemma dec_length_pos n : (1 <= length (dec n))%nat.
Proof.
  unfold dec. rewrite dec_digits_S. destruct (n / 10 =? 0).
  - apply le_n.
  - exact (proj1 (dec_digits_length 19 (n / 10) [48 + n mod 10])).
Qed.

Lemma dec_ok n : bytes_ok (dec n) = true.
Proof. unfold dec. apply dec_digits_ok. reflexivity. Qed.

Lemma txt1_ok : bytes_ok txt1 = true. Proof. vm_compute. reflexivity. Qed.
Lemma txt2_ok : bytes_ok txt2 = true. Proof. vm_compute. reflexivity. Qed.
Lemma txt3_ok : bytes_ok txt3 = true. Proof. vm_compute. reflexivity. Qed.

Lemma replacement_text_ok size limit : bytes_ok (replacement_text size limit) = true.
Proof.
  unfold replacement_text.
  rewrite !bytes_ok_app, txt1_ok, txt2_ok, txt3_ok, !dec_ok. reflexivity.
Qed.

(** 114 fixed bytes and two numbers of 1 to 20 digits *)
Lemma replacement_text_bounds size limit :
  (116 <= length (replacement_text size limit) <= 154)%nat.
Proof.
  unfold replacement_text. rewrite !app_length.
  change (length txt1) with 12%nat. change (length txt2) with 17%nat. change (length txt3) with 85%nat.
  pose proof (dec_length_le size). pose proof (dec_length_le limit).
  pose proof (dec_length_pos size). pose proof (dec_length_pos limit). lia.
Qed.

Lemma replacement_text_lenN size limit : lenN (replacement_text size limit) <= 154.
Proof. unfold lenN. pose proof (replacement_text_bounds size limit). lia. Qed.

Lemma replacement_len_le_bound size limit : replacement_len size limit <= replacement_bound.
Proof.
  unfold replacement_len. change replacement_bound with (HEADER_SIZE + 154).
  apply N.add_le_mono_l, replacement_text_lenN.
Qed.

Lemma replacement_id id size limit : h_id (m_hdr (replacement id size limit)) = id.
Proof. reflexivity. Qed.
Lemma replacement_ec id size limit : h_ec (m_hdr (replacement id size limit)) = 9.
Proof. reflexivity. Qed.

Lemma replacement_to_vec_len id size limit :
  lenN (to_vec (replacement id size limit)) = replacement_len size limit.
Proof. rewrite lenN_to_vec_parts. reflexivity. Qed.

(** the fields that are not constants are the id, the body length and the
    frame length; the two lengths are at most 202 *)
Lemma replacement_ok id size limit : id < two64 -> msg_ok (replacement id size limit) = true.
Proof.
  intros Hid. pose proof (replacement_text_lenN size limit) as Hb.
  unfold msg_ok, hdr_ok, replacement.
  cbn [m_hdr m_query m_body h_length h_spec h_version h_notify h_reserved h_id h_qlen h_blen
       h_qfmt h_bfmt h_ec].
  rewrite replacement_text_ok, !N.eqb_refl, (proj2 (N.ltb_lt _ _) Hid).
  rewrite (proj2 (N.ltb_lt _ two64) (N.le_lt_trans _ 154 two64 Hb eq_refl)).
  rewrite (proj2 (N.ltb_lt _ two64) (N.le_lt_trans _ (HEADER_SIZE + 0 + 154) two64 (proj1 (N.add_le_mono_l _ _ _) Hb) eq_refl)).
  reflexivity.
Qed.

Lemma replacement_round_trip id size limit :
  id < two64 ->
  from_slice_exact (to_vec (replacement id size limit)) = Ok (replacement id size limit).
Proof. intros Hid. apply from_slice_exact_round_trip. now apply replacement_ok. Qed.

Lemma replacement_differs_ec id size limit m :
  id < two64 -> msg_ok m = true -> h_ec (m_hdr m) <> 9 ->
  to_vec (replacement id size limit) <> to_vec m.
Proof.
  intros Hid Hm Hec H. apply Hec.
  rewrite <- (to_vec_inj _ _ (replacement_ok id size limit Hid) Hm H). reflexivity.
Qed.

Lemma frame_outbound_within lim m :
  check_outbound lim (HEADER_SIZE + lenN (m_query m) + lenN (m_body m)) = true ->
  frame_outbound lim m = (Some (to_vec m), false).
Proof.
  intros H. unfold frame_outbound. cbv zeta. rewrite !into_wire_bytes_eq.
  destruct lim as [l|]; [|reflexivity].
  unfold check_outbound in H.
  destruct (l <? HEADER_SIZE + lenN (m_query m) + lenN (m_body m)); [discriminate|reflexivity].
Qed.

Lemma frame_outbound_notify l m :
  l < HEADER_SIZE + lenN (m_query m) + lenN (m_body m) -> h_notify (m_hdr m) <> 0 ->
  frame_outbound (Some l) m = (None, true).
Proof.
  intros Hl Hn. unfold frame_outbound. cbv zeta.
  apply N.ltb_lt in Hl. rewrite Hl. apply N.eqb_neq in Hn. rewrite Hn. reflexivity.
Qed.

Lemma frame_outbound_replaced_eq l m :
  l < HEADER_SIZE + lenN (m_query m) + lenN (m_body m) -> h_notify (m_hdr m) = 0 ->
  frame_outbound (Some l) m =
  (Some (to_vec (replacement (h_id (m_hdr m))
                   (HEADER_SIZE + lenN (m_query m) + lenN (m_body m)) l)), true).
Proof.
  intros Hl Hn. unfold frame_outbound. cbv zeta.
  apply N.ltb_lt in Hl. rewrite Hl, Hn, N.eqb_refl, into_wire_bytes_eq. reflexivity.
Qed.

Lemma frame_outbound_replaced l m :
  l < HEADER_SIZE + lenN (m_query m) + lenN (m_body m) -> h_notify (m_hdr m) = 0 ->
  h_id (m_hdr m) < two64 ->
  exists r, frame_outbound (Some l) m = (Some (to_vec r), true) /\ msg_ok r = true /\
    h_id (m_hdr r) = h_id (m_hdr m) /\ h_ec (m_hdr r) = 9 /\ m_query r = [] /\
    lenN (to_vec r) <= replacement_bound /\ from_slice_exact (to_vec r) = Ok r.
Proof.
  intros Hl Hn Hid.
  exists (replacement (h_id (m_hdr m)) (HEADER_SIZE + lenN (m_query m) + lenN (m_body m)) l).
  split; [now apply frame_outbound_replaced_eq|].
  split; [now apply replacement_ok|].
  split; [reflexivity|]. split; [reflexivity|]. split; [reflexivity|].
  split; [rewrite replacement_to_vec_len; apply replacement_len_le_bound|].
  now apply replacement_round_trip.
Qed.

Lemma frame_outbound_le_limit l m bs rep :
  replacement_bound <= l -> frame_outbound (Some l) m = (Some bs, rep) -> lenN bs <= l.
Proof.
  intros Hb H.
  destruct (N.ltb_spec l (HEADER_SIZE + lenN (m_query m) + lenN (m_body m))) as [E|E].
  - destruct (N.eqb_spec (h_notify (m_hdr m)) 0) as [En|En].
    + rewrite (frame_outbound_replaced_eq l m E En) in H.
      injection H as <- _. rewrite replacement_to_vec_len.
      exact (N.le_trans _ _ _ (replacement_len_le_bound _ l) Hb).
    + rewrite (frame_outbound_notify l m E En) in H. discriminate.
  - rewrite frame_outbound_within in H by (apply negb_true_iff, N.ltb_ge; exact E).
    injection H as <- _. rewrite lenN_to_vec_parts. exact E.
Qed.

Lemma client_send_refused l m : l < lenN (to_vec m) -> client_send (Some l) m = None.
Proof.
  intros H. unfold client_send, check_outbound. cbv zeta.
  apply N.ltb_lt in H. rewrite H. reflexivity.
Qed.

Lemma client_send_within lim m :
  check_outbound lim (lenN (to_vec m)) = true -> client_send lim m = Some (to_vec m).
Proof. intros H. unfold client_send. cbv zeta. rewrite H. reflexivity. Qed.

Lemma sent_of_self m : msg_ok m = true ->
  sent_of m (Some (to_vec m)) =
  SFrame (HEADER_SIZE + lenN (m_query m) + lenN (m_body m)) (h_id (m_hdr m)) (h_ec (m_hdr m)) true.
Proof.
  intros H. unfold sent_of.
  rewrite (from_slice_exact_round_trip m H), bytes_eqb_refl, lenN_to_vec_parts. reflexivity.
Qed.

Lemma sent_of_replacement m id size limit :
  id < two64 ->
  sent_of m (Some (to_vec (replacement id size limit))) =
  SFrame (replacement_len size limit) id 9
    (bytes_eqb (to_vec (replacement id size limit)) (to_vec m)).
Proof.
  intros Hid. unfold sent_of.
  rewrite (replacement_round_trip id size limit Hid), replacement_to_vec_len. reflexivity.
Qed.

(** the condition under which a replaced response is distinguishable from the
    offered message *)
Definition not_self_replacement (c : c17_case) : Prop :=
  forall l, v_limit c = Some l ->
    to_vec (replacement (h_id (m_hdr (v_msg c)))
              (HEADER_SIZE + lenN (m_query (v_msg c)) + lenN (m_body (v_msg c))) l)
    <> to_vec (v_msg c).

Lemma c17_wf_msg c : c17_wf c = true -> msg_ok (v_msg c) = true /\ h_id (m_hdr (v_msg c)) < two64.
Proof.
  unfold c17_wf. intros Hwf. apply andb_true_iff in Hwf as [Hwf _]. apply andb_true_iff in Hwf as [Hok _].
  split; [exact Hok|]. apply msg_ok_parts in Hok as (Hh & _). revert Hh. unfold hdr_ok.
  destruct (N.ltb_spec (h_id (m_hdr (v_msg c))) two64) as [H|_]; [intros _; exact H|].
  rewrite andb_false_r. discriminate.
Qed.

Lemma ec_not_self_replacement c :
  c17_wf c = true -> h_ec (m_hdr (v_msg c)) <> 9 -> not_self_replacement c.
Proof.
  intros Hwf Hec l _. destruct (c17_wf_msg c Hwf) as [Hok Hid].
  apply replacement_differs_ec; assumption.
Qed.

Lemma over_check lim n :
  match lim with Some l => l <? n | None => false end = negb (check_outbound lim n).
Proof. destruct lim; [symmetry; apply negb_involutive|reflexivity]. Qed.

Lemma model_C17_abs_agrees_gen c :
  c17_wf c = true -> not_self_replacement c ->
  model_C17 c = model_C17_abs (h_ec (m_hdr (v_msg c))) (abs_of c).
Proof.
  intros Hwf Hns. destruct (c17_wf_msg c Hwf) as [Hok Hid]. clear Hwf.
  destruct c as [p lim m]. unfold not_self_replacement in Hns. cbn [v_path v_limit v_msg] in *.
  unfold model_C17, model_C17_abs, abs_of, client_send.
  cbn [v_path v_limit v_msg a_path a_limit a_flen a_id a_notify]. cbv zeta.
  rewrite over_check, lenN_to_vec_parts.
  destruct (check_outbound lim (HEADER_SIZE + lenN (m_query m) + lenN (m_body m))) eqn:Ck; cbn [negb].
  - rewrite (frame_outbound_within lim m Ck), (sent_of_self m Hok).
    destruct (is_client p); reflexivity.
  - destruct lim as [l|]; [|discriminate Ck]. apply negb_false_iff, N.ltb_lt in Ck.
    destruct (is_client p); [reflexivity|].
    destruct (N.eqb_spec (h_notify (m_hdr m)) 0) as [En|En]; cbn [negb].
    + rewrite (frame_outbound_replaced_eq l m Ck En), (sent_of_replacement m _ _ l Hid),
        (bytes_eqb_neq _ _ (Hns l eq_refl)). reflexivity.
    + rewrite (frame_outbound_notify l m Ck En). reflexivity.
Qed.

Lemma ok_C17_abs_of c o : ok_C17_abs (abs_of c) o = ok_C17 c o.
Proof. reflexivity. Qed.

(** the two facts about sizes: a replacement fits any limit of at least
    [replacement_bound], and a frame that is not over the limit fits it; the
    rest is the decision table *)
Lemma ok_model_C17_abs ec a : ok_C17_abs a (model_C17_abs ec a) = true.
Proof.
  destruct a as [p [l|] flen id ntf]; unfold ok_C17_abs, model_C17_abs;
    cbn [a_path a_limit a_flen a_id a_notify].
  2: destruct (is_client p); cbn [w_sent w_reported w_alive andb negb]; rewrite N.eqb_refl; reflexivity.
  destruct (l <? flen) eqn:E.
  - assert (Hs : (if replacement_bound <=? l then replacement_len flen l <=? l else true) = true).
    { destruct (N.leb_spec replacement_bound l) as [Hb|_]; [|reflexivity].
      apply N.leb_le. exact (N.le_trans _ _ _ (replacement_len_le_bound flen l) Hb). }
    destruct (is_client p), ntf, (has_hooks p); cbn [w_sent w_reported w_alive orb andb negb];
      rewrite ?N.eqb_refl, ?Hs; reflexivity.
  - rewrite N.ltb_antisym in E. apply negb_false_iff in E.
    destruct (is_client p); cbn [w_sent w_reported w_alive andb negb];
      rewrite E, N.eqb_refl; destruct (replacement_bound <=? l); reflexivity.
Qed.

Lemma ok_model_C17_gen c :
  c17_wf c = true -> not_self_replacement c -> ok_C17 c (model_C17 c) = true.
Proof.
  intros Hwf Hns. rewrite (model_C17_abs_agrees_gen c Hwf Hns), <- ok_C17_abs_of.
  apply ok_model_C17_abs.
Qed.

(** [not_self_replacement] cannot be dropped from [ok_model_C17_gen]: on this
    case the oracle rejects the model (computed in Props/C17.v).  168 is the
    length of the replacement for (size 168, limit 100), so the message, offered
    under the limit 100, is replaced by itself. *)
Definition c17_self_replacement : c17_case :=
  mkC17 PInlineResponse (Some 100) (replacement 7 168 100).
