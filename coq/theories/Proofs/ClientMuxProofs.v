(** The client multiplexing model (Model/ClientMux.v): an enabled step is one of eleven cases
    ([trans]); the state invariant [Inv] holds of every run; [Ctr] says which ids came from the
    counter ([Low]: all of them, [Uniq]: none twice, for the statements about id reuse); the
    history invariants [Hist], [Cnt] hold of the runs the generator promises. All of
    them are kept by the few updates the eleven cases are made of, and the oracle's verdict is
    read off them at the end. Last, the batch workers: [Binv], kept by [bstep]. *)
From RepeV Require Import Model.ClientMux Proofs.PeersProofs.
From Coq Require Import Permutation.

Ltac simp_m := cbn [m_next m_pending m_issued m_wire m_matched m_out m_sub m_dropped] in *.

Lemma assoc_fun {V} (l : list (N * V)) k v v' :
  NoDup (map fst l) -> In (k, v) l -> In (k, v') l -> v = v'.
Proof.
  intros ND H1 H2. apply (In_aget l k v ND) in H1. apply (In_aget l k v' ND) in H2. congruence.
Qed.

Lemma assoc_inj (l : list (N * N)) k k' v :
  NoDup (map snd l) -> In (k, v) l -> In (k', v) l -> k = k'.
Proof.
  induction l as [|[k0 v0] l IH]; cbn [map snd In]; intros ND H1 H2; [contradiction|].
  apply NoDup_cons_iff in ND as [Hnot ND'].
  destruct H1 as [[= -> ->]|H1].
  - destruct H2 as [[= ->]|H2]; [reflexivity|destruct (Hnot (in_map snd l _ H2))].
  - destruct H2 as [[= -> ->]|H2]; [destruct (Hnot (in_map snd l _ H1))|exact (IH ND' H1 H2)].
Qed.

Lemma NoDup_snd_sub (l l' : list (N * N)) :
  NoDup (map fst l) -> NoDup (map snd l') -> incl l l' -> NoDup (map snd l).
Proof.
  induction l as [|[c id] l IH]; cbn [map fst snd]; intros ND ND' Hi; [constructor|].
  apply NoDup_cons_iff in ND as [Hnot ND0]. apply incl_cons_inv in Hi. destruct Hi as [Hc Hi]. constructor.
  - intros Hin. apply in_map_iff in Hin. destruct Hin as [[c' id'] [E Hin]]. cbn [snd] in E. subst id'.
    rewrite (assoc_inj l' c c' id ND' Hc (Hi _ Hin)) in Hnot. apply Hnot. apply (in_map fst) in Hin. exact Hin.
  - exact (IH ND0 ND' Hi).
Qed.

Lemma aset_fresh {V} (l : list (N * V)) k v : aget l k = None -> aset l k v = l ++ [(k, v)].
Proof.
  induction l as [|[k0 v0] l IH]; cbn [aget aset app]; [reflexivity|].
  destruct (k0 =? k); [discriminate|]. intros H. rewrite (IH H). reflexivity.
Qed.

Lemma NoDup_fst_snoc {V} (l : list (N * V)) k v :
  NoDup (map fst l) -> aget l k = None -> NoDup (map fst (l ++ [(k, v)])).
Proof. intros ND H. rewrite map_app. apply NoDup_snoc; [exact ND|]. apply aget_None. exact H. Qed.

Lemma aget_snoc_None {V} (l : list (N * V)) k v k' :
  aget (l ++ [(k, v)]) k' = None <-> aget l k' = None /\ k <> k'.
Proof.
  rewrite aget_app. cbn [aget]. destruct (aget l k'); [split; [discriminate|intros [H _]; exact H]|].
  destruct (N.eqb_spec k k') as [E|E]; split; try discriminate; [intros [_ H]; destruct (H E)|intros _; split; [reflexivity|exact E]|reflexivity].
Qed.

Lemma In_adel {V} (l : list (N * V)) k k' v :
  In (k', v) (adel l k) <-> k' <> k /\ In (k', v) l.
Proof. rewrite adel_filter, filter_In. cbn [fst]. rewrite negb_true_iff, N.eqb_neq. apply and_comm. Qed.

Lemma aget_not_None {V} (l : list (N * V)) k : aget l k <> None <-> In k (map fst l).
Proof.
  split.
  - intros H. destruct (aget l k) eqn:E; [|congruence]. apply aget_Some_In in E. apply (in_map fst) in E. exact E.
  - intros H E. apply aget_None in E. tauto.
Qed.


Lemma existsb_snoc_true {A} (f : A -> bool) h x : f x = true -> existsb f (h ++ [x]) = true.
Proof. intros H. rewrite existsb_app. cbn [existsb]. rewrite H. apply orb_true_r. Qed.

(** which fields each operation cannot touch: [m_issued], [m_next] are read through
    [deliver], [route], [finish] with these *)
Lemma deliver_eq s :
  deliver s = mkMux (m_next s) (m_pending s) (m_issued s) (m_wire s) None
                    (m_out (deliver s)) (m_sub s) (m_dropped (deliver s)).
Proof.
  unfold deliver. destruct (m_matched s) as [[c f]|] eqn:M; [destruct (aget (m_out s) c); reflexivity|].
  destruct s. simp_m. rewrite M. reflexivity.
Qed.

Lemma route_eq ws s f :
  route ws s f = mkMux (m_next s) (m_pending (route ws s f)) (m_issued s) (m_wire s) (m_matched (route ws s f))
                       (m_out s) (m_sub (route ws s f)) (m_dropped (route ws s f)).
Proof.
  unfold route. destruct (ws && negb (f_notify f =? 0)); [|destruct (aget (m_pending s) (f_id f))]; reflexivity.
Qed.

Lemma finish_eq s c o :
  finish s c o = mkMux (m_next s) (m_pending (finish s c o)) (m_issued s) (m_wire s) (m_matched s)
                       (m_out (finish s c o)) (m_sub s) (m_dropped s).
Proof. unfold finish. destruct (aget (m_issued s) c); [reflexivity|]. destruct s. reflexivity. Qed.

Lemma deliver_matched s : m_matched (deliver s) = None.
Proof. rewrite deliver_eq. reflexivity. Qed.

Lemma deliver_none s : m_matched s = None -> deliver s = s.
Proof. intros M. unfold deliver. rewrite M. reflexivity. Qed.

Lemma route_notify s f : f_notify f <> 0 ->
  route true s f
  = mkMux (m_next s) (m_pending s) (m_issued s) (m_wire s) (m_matched s) (m_out s) (m_sub s ++ [f]) (m_dropped s).
Proof. intros Hn. unfold route. apply N.eqb_neq in Hn. rewrite Hn. reflexivity. Qed.

Lemma route_match ws s f c :
  ws && negb (f_notify f =? 0) = false -> aget (m_pending s) (f_id f) = Some c ->
  route ws s f
  = mkMux (m_next s) (adel (m_pending s) (f_id f)) (m_issued s) (m_wire s) (Some (c, f)) (m_out s) (m_sub s) (m_dropped s).
Proof. intros E P. unfold route. rewrite E, P. reflexivity. Qed.

Lemma route_drop ws s f :
  ws && negb (f_notify f =? 0) = false -> aget (m_pending s) (f_id f) = None ->
  route ws s f
  = mkMux (m_next s) (m_pending s) (m_issued s) (m_wire s) (m_matched s) (m_out s) (m_sub s) (m_dropped s ++ [f]).
Proof. intros E P. unfold route. rewrite E, P. reflexivity. Qed.

Lemma frame_of_deliver s a : frame_of (deliver s) a = frame_of s a.
Proof. rewrite (deliver_eq s). destruct a; reflexivity. Qed.

Lemma srv_own_deliver s st : srv_own (deliver s) st = srv_own s st.
Proof. rewrite (deliver_eq s). destruct st as [| | |[]| | | | |]; reflexivity. Qed.

Definition ended (s : mux) (nx c : N) (o : outcome) : mux :=
  mkMux nx (m_pending s) (m_issued s) (m_wire s) (m_matched s) (m_out s ++ [(c, o)]) (m_sub s) (m_dropped s).
Definition registered (s : mux) (nx c id : N) : mux :=
  mkMux nx (aset (m_pending s) id c) (m_issued s ++ [(c, id)]) (m_wire s) (m_matched s) (m_out s) (m_sub s) (m_dropped s).
Definition bump (s : mux) : N := (m_next s + 1) mod two64.

(** [trans ws s st s']: [st] is enabled in [s] and leads to [s']; each case
    carries what [enabled] and the branch taken say about [s] *)
Inductive trans (ws : bool) (s : mux) : step -> mux -> Prop :=
| T_register c : aget (m_issued s) c = None -> aget (m_out s) c = None -> aget (m_pending s) (m_next s) = None ->
    trans ws s (Register c) (registered s (bump s) c (m_next s))
| T_register_refused c : aget (m_issued s) c = None -> aget (m_out s) c = None ->
    aget (m_pending s) (m_next s) <> None -> trans ws s (Register c) (ended s (bump s) c ORefused)
| T_forward c id : aget (m_issued s) c = None -> aget (m_out s) c = None -> aget (m_pending s) id = None ->
    trans ws s (Forward c id) (registered s (m_next s) c id)
| T_forward_refused c id : aget (m_issued s) c = None -> aget (m_out s) c = None ->
    aget (m_pending s) id <> None -> trans ws s (Forward c id) (ended s (m_next s) c ORefused)
| T_fwdnotify c : aget (m_issued s) c = None -> aget (m_out s) c = None ->
    trans ws s (FwdNotify c) (ended s (m_next s) c ONotified)
| T_write c id : aget (m_issued s) c = Some id -> aget (m_wire s) c = None ->
    trans ws s (Write c)
      (mkMux (m_next s) (m_pending s) (m_issued s) (m_wire s ++ [(c, id)]) (m_matched s) (m_out s) (m_sub s) (m_dropped s))
| T_recv f : trans ws s (Recv f) (route ws (deliver s) f)
| T_srv a f : frame_of s a = Some f -> trans ws s (Srv a) (route ws (deliver s) f)
| T_deliver : trans ws s Deliver (deliver s)
| T_timeout c id : aget (m_wire s) c = Some id -> aget (m_out s) c = None -> trans ws s (Timeout c) (finish s c OTimeout)
| T_cancel c id : aget (m_issued s) c = Some id -> aget (m_out s) c = None -> trans ws s (Cancel c) (finish s c OCancel).

Lemma mstep_disabled ws s st : enabled s st = false -> mstep ws s st = s.
Proof. intros E. unfold mstep. rewrite E. reflexivity. Qed.

Lemma mstep_trans ws s st : enabled s st = true -> trans ws s st (mstep ws s st).
Proof.
  intros En. unfold mstep. rewrite En. cbn [negb].
  destruct st as [c|c|f|a| |c|c|c id|c]; cbn [enabled] in En.
  - destruct (aget (m_issued s) c) eqn:Ei, (aget (m_out s) c) eqn:Eo; try discriminate En.
    destruct (aget (m_pending s) (m_next s)) eqn:P; cbn [isSome];
      [apply T_register_refused|apply T_register]; congruence.
  - destruct (aget (m_issued s) c) eqn:Ei, (aget (m_wire s) c) eqn:Ew, (aget (m_out s) c) eqn:Eo; try discriminate En.
    apply T_write; assumption.
  - apply T_recv.
  - destruct (frame_of s a) as [f|] eqn:F; [|discriminate En]. apply T_srv, F.
  - apply T_deliver.
  - destruct (aget (m_wire s) c) as [id|] eqn:Ew, (aget (m_out s) c) eqn:Eo; try discriminate En.
    apply (T_timeout ws s c id); assumption.
  - destruct (aget (m_issued s) c) as [id|] eqn:Ei, (aget (m_out s) c) eqn:Eo; try discriminate En.
    apply (T_cancel ws s c id); assumption.
  - destruct (aget (m_issued s) c) eqn:Ei, (aget (m_out s) c) eqn:Eo; try discriminate En.
    destruct (aget (m_pending s) id) eqn:P; cbn [isSome]; [apply T_forward_refused|apply T_forward]; congruence.
  - destruct (aget (m_issued s) c) eqn:Ei, (aget (m_out s) c) eqn:Eo; try discriminate En.
    apply T_fwdnotify; assumption.
Qed.

Lemma mstep_cases ws s st (P : mux -> Prop) :
  (enabled s st = false -> P s) -> (forall s', trans ws s st s' -> P s') -> P (mstep ws s st).
Proof.
  intros H0 HT. destruct (enabled s st) eqn:En; [exact (HT _ (mstep_trans ws s st En))|].
  rewrite (mstep_disabled ws s st En). exact (H0 eq_refl).
Qed.

Record Inv (ws : bool) (s : mux) : Prop := mkInv {
  I_iss_c : NoDup (map fst (m_issued s));
  I_pend_nd : NoDup (map fst (m_pending s));
  (* the pending map holds exactly the calls that are still waiting: registered, not ended,
     and not the one whose frame the reader has in hand *)
  I_pend : forall id c, In (id, c) (m_pending s) <->
      In (c, id) (m_issued s) /\ aget (m_out s) c = None /\ (forall f, m_matched s <> Some (c, f));
  I_wire : forall c id, In (c, id) (m_wire s) -> In (c, id) (m_issued s);
  I_wire_nd : NoDup (map fst (m_wire s));
  (* a frame taken for a caller, in hand or handed over, carries the id issued to that caller *)
  I_match : forall c f, m_matched s = Some (c, f) ->
      In (c, f_id f) (m_issued s) /\ (ws = true -> f_notify f = 0);
  I_out_nd : NoDup (map fst (m_out s));
  I_out : forall c f, In (c, OGot f) (m_out s) ->
      In (c, f_id f) (m_issued s) /\ (ws = true -> f_notify f = 0)
}.

Lemma Inv0 ws : Inv ws mux0.
Proof.
  constructor; cbn; try constructor; try (intros; contradiction); try (intros; discriminate). tauto.
Qed.

Lemma pending_issued ws s id c : Inv ws s -> In (id, c) (m_pending s) -> In (c, id) (m_issued s).
Proof. intros HI Hin. exact (proj1 (proj1 (I_pend _ _ HI id c) Hin)). Qed.

Lemma pending_inj_inv ws s id1 id2 c :
  Inv ws s -> In (id1, c) (m_pending s) -> In (id2, c) (m_pending s) -> id1 = id2.
Proof.
  intros HI H1 H2.
  exact (assoc_fun _ _ _ _ (I_iss_c _ _ HI) (pending_issued ws s id1 c HI H1) (pending_issued ws s id2 c HI H2)).
Qed.

(** caller [c] ends with [o]; [p] is the pending map without whatever entry [c] had *)
Lemma Inv_end ws s c o nx p :
  Inv ws s -> aget (m_out s) c = None ->
  (forall f, o = OGot f -> In (c, f_id f) (m_issued s) /\ (ws = true -> f_notify f = 0)) ->
  NoDup (map fst p) -> (forall id c', In (id, c') p <-> c <> c' /\ In (id, c') (m_pending s)) ->
  Inv ws (mkMux nx p (m_issued s) (m_wire s) (m_matched s) (m_out s ++ [(c, o)]) (m_sub s) (m_dropped s)).
Proof.
  intros [Iss Pnd Pend Wire Wnd Match Ond Out] Ho Hgot NDp Hp.
  constructor; simp_m; try assumption.
  - intros id c'. rewrite Hp, Pend, aget_snoc_None. tauto.
  - apply NoDup_fst_snoc; assumption.
  - intros c' f' Hin. apply in_app_or in Hin. destruct Hin as [Hin|[[= <- ->]|[]]]; [exact (Out c' f' Hin)|exact (Hgot f' eq_refl)].
Qed.

(** the shape in which [Inv_end] takes "[c] has no entry in the pending map" *)
Lemma no_entry_iff (l : list (N * N)) c :
  (forall id, ~ In (id, c) l) -> forall id c', In (id, c') l <-> c <> c' /\ In (id, c') l.
Proof. intros H id c'. split; [|tauto]. intros Hin. split; [intros <-; exact (H id Hin)|exact Hin]. Qed.

(** a call that ends without ever having registered: refused, or a forwarded notify *)
Lemma Inv_refuse ws s c o nx :
  Inv ws s -> aget (m_issued s) c = None -> aget (m_out s) c = None -> (forall f, o <> OGot f) ->
  Inv ws (ended s nx c o).
Proof.
  intros HI Hi Ho Hno. apply Inv_end; try assumption; [intros f E; destruct (Hno f E)|exact (I_pend_nd _ _ HI)|].
  apply no_entry_iff. intros id Hin. apply (pending_issued ws s id c HI), (in_map fst) in Hin.
  apply aget_None in Hi. exact (Hi Hin).
Qed.

(** the reader forgets the frame in hand, once its caller has an outcome *)
Lemma Inv_unmatch ws s d :
  Inv ws s -> (forall c f, m_matched s = Some (c, f) -> aget (m_out s) c <> None) ->
  Inv ws (mkMux (m_next s) (m_pending s) (m_issued s) (m_wire s) None (m_out s) (m_sub s) d).
Proof.
  intros [Iss Pnd Pend Wire Wnd Match Ond Out] Hm. constructor; simp_m; try assumption; try discriminate.
  intros id c. rewrite Pend. split; intros (A & B & C); repeat split; try assumption; try discriminate.
  intros f E. exact (Hm c f E B).
Qed.

(** [deliver]: the matched caller, unless it gave up, ends with the frame; then the frame is forgotten *)
Lemma Inv_deliver ws s : Inv ws s -> Inv ws (deliver s).
Proof.
  intros HI. unfold deliver. destruct (m_matched s) as [[c f]|] eqn:M; [|exact HI].
  destruct (aget (m_out s) c) as [o|] eqn:O.
  - apply (Inv_unmatch ws s _ HI). intros c' f' E. rewrite M in E. injection E as <- <-. rewrite O. discriminate.
  - refine (Inv_unmatch ws (ended s (m_next s) c (OGot f)) (m_dropped s) _ _).
    + apply Inv_end; try assumption; [|exact (I_pend_nd _ _ HI)|].
      * intros f' [= <-]. exact (I_match _ _ HI c f M).
      * apply no_entry_iff. intros id Hin. exact (proj2 (proj2 (proj1 (I_pend _ _ HI id c) Hin)) f M).
    + cbn [ended m_matched m_out]. intros c' f' E. rewrite M in E. injection E as <- <-. intros E. apply aget_snoc_None in E. exact (proj2 E eq_refl).
Qed.

Lemma Inv_route ws s f : Inv ws s -> m_matched s = None -> Inv ws (route ws s f).
Proof.
  intros [Iss Pnd Pend Wire Wnd Match Ond Out] M.
  unfold route. destruct (ws && negb (f_notify f =? 0)) eqn:E.
  - constructor; simp_m; assumption.
  - destruct (aget (m_pending s) (f_id f)) as [c|] eqn:P; [|constructor; simp_m; assumption].
    pose proof (aget_Some_In _ _ _ P) as Pin. pose proof (proj1 (proj1 (Pend _ _) Pin)) as A.
    constructor; simp_m; try assumption.
    + apply NoDup_adel. assumption.
    + (* of the waiting calls, [c] is the one under this id, and it stops waiting *)
      intros id c'. rewrite In_adel, Pend, M. split.
      * intros (Hne & A' & B' & _). repeat split; try assumption.
        intros f' [= <- <-]. exact (Hne (assoc_fun _ _ _ _ Iss A' A)).
      * intros (A' & B' & C'). repeat split; try assumption; try discriminate. intros ->.
        assert (Pin' : In (f_id f, c') (m_pending s)) by (apply Pend; rewrite M; repeat split; try assumption; discriminate).
        rewrite (assoc_fun _ _ _ _ Pnd Pin' Pin) in C'. exact (C' f eq_refl).
    + intros c' f' [= <- <-]. split; [exact A|].
      intros ->. cbn [andb] in E. apply negb_false_iff, N.eqb_eq in E. exact E.
Qed.

Lemma finish_pending ws s c id o : Inv ws s -> aget (m_issued s) c = Some id ->
  forall id' c', In (id', c') (m_pending (finish s c o)) <-> c <> c' /\ In (id', c') (m_pending s).
Proof.
  intros HI Hi. unfold finish. rewrite Hi. simp_m. apply aget_Some_In in Hi.
  destruct (aget (m_pending s) id) as [c0|] eqn:P; [destruct (N.eqb_spec c0 c) as [->|E0]|].
  (* the entry under [id] is another call's, or there is none: nothing of [c]'s is pending *)
  2,3: apply no_entry_iff; intros id' Hin; pose proof (pending_issued ws s id' c HI Hin) as A;
    rewrite (assoc_fun _ _ _ _ (I_iss_c _ _ HI) A Hi) in Hin; apply (In_aget _ _ _ (I_pend_nd _ _ HI)) in Hin; congruence.
  apply aget_Some_In in P. intros id' c'. rewrite In_adel. split; intros [A B]; (split; [|exact B]).
  - intros <-. exact (A (pending_inj_inv ws s id' id c HI B P)).
  - intros ->. exact (A (assoc_fun _ _ _ _ (I_pend_nd _ _ HI) P B)).
Qed.

Lemma Inv_finish ws s c id o :
  Inv ws s -> aget (m_issued s) c = Some id -> aget (m_out s) c = None -> (forall f, o <> OGot f) ->
  Inv ws (finish s c o).
Proof.
  intros HI Hi Ho Hno. pose proof (finish_pending ws s c id o HI Hi) as Hp. revert Hp. unfold finish. rewrite Hi. simp_m.
  intros Hp. apply Inv_end; try assumption; [intros f E; destruct (Hno f E)|].
  destruct (match aget (m_pending s) id with Some c' => c' =? c | None => false end); [apply NoDup_adel|]; exact (I_pend_nd _ _ HI).
Qed.

(** [id], counter-issued or caller-supplied, may have been used before; it only must not be pending *)
Lemma Inv_register ws s c id nx :
  Inv ws s -> aget (m_issued s) c = None -> aget (m_out s) c = None ->
  aget (m_pending s) id = None -> Inv ws (registered s nx c id).
Proof.
  intros [Iss Pnd Pend Wire Wnd Match Ond Out] Hc Ho Pn.
  unfold registered. rewrite (aset_fresh _ _ _ Pn).
  assert (Hnc : forall id', ~ In (c, id') (m_issued s))
    by (intros id' Hin; apply aget_None in Hc; apply Hc; apply (in_map fst) in Hin; exact Hin).
  assert (Hold : forall c' id', In (c', id') (m_issued s) -> In (c', id') (m_issued s ++ [(c, id)]))
    by (intros c' id' H; apply in_or_app; left; exact H).
  constructor; simp_m; try assumption; try (apply NoDup_fst_snoc; assumption).
  - intros id' c'. rewrite !in_app_iff, Pend. cbn [In]. split.
    + intros [(A & B & C)|[[= <- <-]|[]]]; [tauto|]. repeat split; [tauto|exact Ho|].
      intros f Hm. exact (Hnc _ (proj1 (Match c f Hm))).
    + intros ([A|[[= <- <-]|[]]] & B & C); tauto.
  - intros c' id' Hin. exact (Hold _ _ (Wire c' id' Hin)).
  - intros c' f Hm. destruct (Match c' f Hm) as [A B]. split; [exact (Hold _ _ A)|exact B].
  - intros c' f Hin. destruct (Out c' f Hin) as [A B]. split; [exact (Hold _ _ A)|exact B].
Qed.

Lemma Inv_write ws s c id :
  Inv ws s -> aget (m_issued s) c = Some id -> aget (m_wire s) c = None ->
  Inv ws (mkMux (m_next s) (m_pending s) (m_issued s) (m_wire s ++ [(c, id)]) (m_matched s)
                (m_out s) (m_sub s) (m_dropped s)).
Proof.
  intros [Iss Pnd Pend Wire Wnd Match Ond Out] Hi Hw.
  constructor; simp_m; try assumption; [|apply NoDup_fst_snoc; assumption].
  intros c' id' Hin. apply in_app_or in Hin. destruct Hin as [Hin|[[= <- <-]|[]]]; [exact (Wire c' id' Hin)|].
  apply aget_Some_In. exact Hi.
Qed.

Lemma Inv_step ws s st : Inv ws s -> Inv ws (mstep ws s st).
Proof.
  intros HI. apply mstep_cases; [intros _; exact HI|intros s' T].
  destruct T as [c Ei Eo P|c Ei Eo P|c id Ei Eo P|c id Ei Eo P|c Ei Eo|c id Ei Ew|f|a f F| |c id Ew Eo|c id Ei Eo].
  - apply Inv_register; assumption.
  - apply Inv_refuse; try assumption; discriminate.
  - apply Inv_register; assumption.
  - apply Inv_refuse; try assumption; discriminate.
  - apply Inv_refuse; try assumption; discriminate.
  - apply (Inv_write ws s c id); assumption.
  - apply Inv_route; [apply Inv_deliver; exact HI|apply deliver_matched].
  - apply Inv_route; [apply Inv_deliver; exact HI|apply deliver_matched].
  - apply Inv_deliver. exact HI.
  - apply aget_Some_In, (I_wire _ _ HI), (In_aget _ _ _ (I_iss_c _ _ HI)) in Ew.
    apply (Inv_finish ws s c id); try assumption. discriminate.
  - apply (Inv_finish ws s c id); try assumption. discriminate.
Qed.

Lemma run_cons ws s st l : run ws s (st :: l) = run ws (mstep ws s st) l.
Proof. reflexivity. Qed.

Lemma run_app ws s l1 l2 : run ws s (l1 ++ l2) = run ws (run ws s l1) l2.
Proof. apply fold_left_app. Qed.

Definition registers (st : step) : bool := match st with Register _ | Forward _ _ => true | _ => false end.

Lemma noreg_step ws s st : registers st = false ->
  m_issued (mstep ws s st) = m_issued s /\ m_next (mstep ws s st) = m_next s.
Proof.
  intros Hr. apply mstep_cases; [split; reflexivity|intros s' T].
  destruct T; try discriminate Hr; try (split; reflexivity).
  - rewrite route_eq, (deliver_eq s). split; reflexivity.
  - rewrite route_eq, (deliver_eq s). split; reflexivity.
  - rewrite deliver_eq. split; reflexivity.
  - rewrite finish_eq. split; reflexivity.
  - rewrite finish_eq. split; reflexivity.
Qed.

Lemma next_step ws s st : m_next s + 1 < two64 -> m_next s <= m_next (mstep ws s st) <= m_next s + 1.
Proof.
  intros Hb. destruct (registers st) eqn:Hr; [|rewrite (proj2 (noreg_step ws s st Hr)); lia].
  apply mstep_cases; [lia|intros s' T].
  destruct T; try discriminate Hr; cbn [registered ended m_next]; unfold bump; rewrite ?(N.mod_small _ _ Hb); lia.
Qed.

Lemma bound_step ws s st k : m_next s + N.of_nat (S k) < two64 ->
  m_next s + 1 < two64 /\ m_next (mstep ws s st) + N.of_nat k < two64.
Proof. intros Hb. pose proof (next_step ws s st). lia. Qed.

Lemma next_run ws l : forall s, m_next s + N.of_nat (length l) < two64 ->
  m_next s <= m_next (run ws s l) <= m_next s + N.of_nat (length l).
Proof.
  induction l as [|st l IH]; intros s Hb; [cbn; lia|]. rewrite run_cons. cbn [length] in *.
  pose proof (next_step ws s st). specialize (IH (mstep ws s st)). lia.
Qed.

Lemma run_inv ws (P : mux -> Prop) :
  (forall s st, P s -> P (mstep ws s st)) -> forall l s, P s -> P (run ws s l).
Proof. intros Hstep l. exact (fold_left_invariant (mstep ws) P l (fun s st _ => Hstep s st)). Qed.

Lemma Inv_run ws l s : Inv ws s -> Inv ws (run ws s l).
Proof. exact (run_inv ws _ (Inv_step ws) l s). Qed.

Lemma Inv_reach ws l : Inv ws (run ws mux0 l).
Proof. apply Inv_run, Inv0. Qed.

(** the counter starts at 1 and a step raises it by at most 1, so after [l] it is at most
    [1 + length l]; the statements about counter ids ask for [length l + 2 < two64], which
    leaves room for one more [m_next s + 1] that does not wrap, and [k] more for [k] further steps *)
Lemma reach_budget ws l k :
  N.of_nat (length l + k) + 2 < two64 -> m_next (run ws mux0 l) + N.of_nat k < two64.
Proof. intros Hb. pose proof (next_run ws l mux0) as H. cbn [mux0 m_next] in H. lia. Qed.

Lemma mstep_incl ws s st : incl (m_issued s) (m_issued (mstep ws s st)) /\ incl (m_out s) (m_out (mstep ws s st)).
Proof.
  assert (D : incl (m_issued s) (m_issued (deliver s)) /\ incl (m_out s) (m_out (deliver s))).
  { split; [rewrite deliver_eq; apply incl_refl|]. unfold deliver.
    destruct (m_matched s) as [[c f]|]; [destruct (aget (m_out s) c)|]; simp_m; try apply incl_appl; apply incl_refl. }
  assert (F : forall c o, incl (m_issued s) (m_issued (finish s c o)) /\ incl (m_out s) (m_out (finish s c o))).
  { intros c o. split; [rewrite finish_eq; apply incl_refl|]. unfold finish.
    destruct (aget (m_issued s) c); simp_m; try apply incl_appl; apply incl_refl. }
  apply mstep_cases; [intros _; split; apply incl_refl|intros s' T].
  (* six cases append at most one entry to either list; the others go through [deliver] or [finish] *)
  destruct T; try (split; try apply incl_appl; apply incl_refl).
  - rewrite route_eq. exact D.
  - rewrite route_eq. exact D.
  - exact D.
  - apply F.
  - apply F.
Qed.

Lemma issued_mono_step ws s st c id : In (c, id) (m_issued s) -> In (c, id) (m_issued (mstep ws s st)).
Proof. apply (mstep_incl ws s st). Qed.

(** [c] has started a call: it cannot start another, now or later *)
Definition started (s : mux) (c : N) : Prop := In c (map fst (m_issued s)) \/ In c (map fst (m_out s)).

Lemma started_step ws s st c : started s c -> started (mstep ws s st) c.
Proof. intros [H|H]; [left|right]; revert H; apply incl_map, (mstep_incl ws s st). Qed.

Lemma started_disabled s c : started s c -> enabled s (Register c) = false.
Proof.
  intros [H|H]; apply aget_not_None in H; cbn [enabled].
  - destruct (aget (m_issued s) c); [reflexivity|contradiction].
  - destruct (aget (m_out s) c); [apply andb_false_r|contradiction].
Qed.

(** [Ctr P s]: the calls of the callers in [P] drew their ids from the counter: the ids
    lie below it, and no two of them are the same *)
Record Ctr (P : N -> bool) (s : mux) : Prop := mkCtr {
  C_lt : forall c id, In (c, id) (m_issued s) -> P c = true -> id < m_next s;
  C_nd : NoDup (map snd (filter (fun ci => P (fst ci)) (m_issued s)))
}.

Lemma Ctr0 P : Ctr P mux0.
Proof. constructor; [intros c id H; contradiction|constructor]. Qed.

Lemma Ctr_ext P P' s : (forall c id, In (c, id) (m_issued s) -> P' c = P c) -> Ctr P s -> Ctr P' s.
Proof.
  intros E [Lt Nd]. constructor.
  - intros c id Hin Pc. rewrite (E c id Hin) in Pc. exact (Lt c id Hin Pc).
  - rewrite (filter_ext_in _ (fun ci => P (fst ci))); [exact Nd|]. intros [c id] Hin. exact (E c id Hin).
Qed.

Lemma Ctr_keep P s s' : Ctr P s -> m_issued s' = m_issued s -> m_next s <= m_next s' -> Ctr P s'.
Proof.
  intros [Lt Nd] Ei Hn. constructor; rewrite Ei; [|exact Nd]. intros c id Hin Pc. specialize (Lt c id Hin Pc). lia.
Qed.

(** a registration under [id]: if the caller is in [P], [id] is the counter's value, which
    every id that [P] holds so far lies below *)
Lemma Ctr_reg P s nx c id :
  Ctr P s -> m_next s <= nx -> (P c = true -> m_next s <= id < nx) -> Ctr P (registered s nx c id).
Proof.
  intros [Lt Nd] Hn Hid. constructor; cbn [registered m_issued m_next].
  - intros c' id' Hin Pc. apply in_app_or in Hin. destruct Hin as [Hin|[[= <- <-]|[]]]; [|apply Hid, Pc].
    specialize (Lt c' id' Hin Pc). lia.
  - rewrite filter_app, map_app. cbn [filter fst]. destruct (P c) eqn:Pc; cbn [map snd]; [|rewrite app_nil_r; exact Nd].
    apply NoDup_snoc; [exact Nd|]. intros Hin. apply in_map_iff in Hin. destruct Hin as [[c' id'] [E Hin]].
    cbn [snd] in E. subst id'. apply filter_In in Hin. destruct Hin as [Hin Pc'].
    specialize (Lt c' id Hin Pc'). specialize (Hid eq_refl). lia.
Qed.

(** kept by every step but a [Forward] of a caller in [P], which brings an id of its own choosing *)
Lemma Ctr_step ws P s st :
  Ctr P s -> m_next s + 1 < two64 -> (forall c id, st = Forward c id -> P c = false) -> Ctr P (mstep ws s st).
Proof.
  intros HC Hb Hf. assert (Hbump : bump s = m_next s + 1) by exact (N.mod_small _ _ Hb).
  destruct (registers st) eqn:Hr.
  2: { destruct (noreg_step ws s st Hr) as [Ei En]. apply (Ctr_keep P s); [exact HC|exact Ei|]. rewrite En. apply N.le_refl. }
  apply mstep_cases; [intros _; exact HC|intros s' T].
  destruct T as [c _ _ _|c _ _ _|c id _ _ _|c id _ _ _| | | | | | |]; try discriminate Hr.
  - apply Ctr_reg; [exact HC|lia|lia].
  - apply (Ctr_keep P s); [exact HC|reflexivity|]. cbn [ended m_next]. lia.
  - apply Ctr_reg; [exact HC|apply N.le_refl|]. rewrite (Hf c id eq_refl). discriminate.
  - apply (Ctr_keep P s); [exact HC|reflexivity|apply N.le_refl].
Qed.

(** every id issued so far was drawn from the counter: true until the first [Forward] *)
Definition Low : mux -> Prop := Ctr (fun _ => true).

Lemma Low_step ws s st : Low s -> m_next s + 1 < two64 -> is_forward st = false -> Low (mstep ws s st).
Proof. intros HL Hb Hnf. apply Ctr_step; [exact HL|exact Hb|]. intros c id ->. discriminate Hnf. Qed.

Lemma Low_pending ws s : Inv ws s -> Low s -> aget (m_pending s) (m_next s) = None.
Proof.
  intros HI HL. destruct (aget (m_pending s) (m_next s)) as [c|] eqn:E; [|reflexivity].
  apply aget_Some_In, (pending_issued ws s _ c HI) in E. pose proof (C_lt _ _ HL _ _ E eq_refl). lia.
Qed.

Lemma Low_fresh s st : Low s -> is_forward st = false -> fresh_reg s st = true.
Proof.
  intros HL Hnf. destruct st; try reflexivity; try discriminate. cbn [fresh_reg].
  apply orb_true_iff. right. apply negb_true_iff. apply memN_false. intros Hin.
  apply in_map_iff in Hin. destruct Hin as [[c' id] [E Hin]]. cbn [snd] in E. subst id.
  pose proof (C_lt _ _ HL _ _ Hin eq_refl). lia.
Qed.

Lemma nofwd_run ws l : forall s,
  Low s -> m_next s + N.of_nat (length l) < two64 -> existsb is_forward l = false ->
  all_fresh ws s l = true /\ Low (run ws s l).
Proof.
  induction l as [|st l IH]; intros s HL Hb Hnf; [split; [reflexivity|assumption]|].
  rewrite run_cons. cbn [all_fresh].
  cbn [existsb] in Hnf. apply orb_false_iff in Hnf. destruct Hnf as [Hnf1 Hnf2].
  destruct (bound_step ws s st _ Hb) as [Hb1 Hb2]. rewrite (Low_fresh s st HL Hnf1).
  apply IH; [apply Low_step| |]; assumption.
Qed.

Lemma nofwd_reach ws l : N.of_nat (length l) + 2 < two64 -> existsb is_forward l = false ->
  all_fresh ws mux0 l = true /\ Low (run ws mux0 l).
Proof. intros Hb. apply (nofwd_run ws l mux0 (Ctr0 _)). cbn [mux0 m_next]. lia. Qed.

(** no id was ever issued twice (kept by the steps that [fresh_reg] admits) *)
Definition Uniq (s : mux) : Prop := NoDup (map snd (m_issued s)).

Lemma Uniq0 : Uniq mux0.
Proof. constructor. Qed.

Lemma Uniq_step ws s st : Uniq s -> fresh_reg s st = true -> Uniq (mstep ws s st).
Proof.
  intros HU Hf. unfold Uniq. destruct (registers st) eqn:Hr; [|rewrite (proj1 (noreg_step ws s st Hr)); exact HU].
  revert Hf. apply mstep_cases; [intros _ _; exact HU|intros s' T].
  destruct T as [c _ _ P| |c id _ _ P| | | | | | | |]; try discriminate Hr; try (intros _; exact HU);
    cbn [fresh_reg]; rewrite P; intros Hf; apply negb_true_iff, memN_false in Hf;
    cbn [registered m_issued]; rewrite map_app; apply NoDup_snoc; assumption.
Qed.

Lemma wire_distinct ws s : Inv ws s -> Uniq s -> NoDup (map snd (m_wire s)).
Proof. intros HI HU. apply (NoDup_snd_sub _ _ (I_wire_nd _ _ HI) HU). intros [c id]. apply (I_wire _ _ HI). Qed.

(** the legacy cleanup (remove by id alone) is the same function wherever no id
    was registered twice *)
Lemma finish_legacy_same ws s c o : Inv ws s -> Uniq s -> finish_legacy s c o = finish s c o.
Proof.
  intros HI HU. unfold finish_legacy, finish. destruct (aget (m_issued s) c) as [id|] eqn:Hi; [|reflexivity].
  destruct (aget (m_pending s) id) as [c0|] eqn:P.
  - destruct (N.eqb_spec c0 c) as [E|E]; [reflexivity|]. exfalso. apply E.
    apply aget_Some_In, (pending_issued ws s id c0 HI) in P. apply aget_Some_In in Hi.
    exact (assoc_inj _ _ _ _ HU P Hi).
  - rewrite (adel_absent _ _ P). reflexivity.
Qed.

Lemma mstep_legacy_same ws s st : Inv ws s -> Uniq s -> mstep_legacy ws s st = mstep ws s st.
Proof.
  intros HI HU. destruct st; try reflexivity; unfold mstep_legacy, mstep;
    (destruct (enabled s _); cbn [negb]; [apply (finish_legacy_same ws); assumption|reflexivity]).
Qed.

Lemma fresh_run ws l : forall s, Inv ws s -> Uniq s ->
  all_fresh ws s l = true -> Uniq (run ws s l) /\ run_legacy ws s l = run ws s l.
Proof.
  induction l as [|st l IH]; intros s HI HU Hf; [split; [exact HU|reflexivity]|].
  cbn [all_fresh] in Hf. apply andb_true_iff in Hf. destruct Hf as [Hf1 Hf2].
  rewrite run_cons. cbn [run_legacy fold_left]. rewrite (mstep_legacy_same ws s st HI HU).
  apply IH; [apply Inv_step|apply Uniq_step|]; assumption.
Qed.

Lemma fresh_reach ws l : all_fresh ws mux0 l = true ->
  Uniq (run ws mux0 l) /\ run_legacy ws mux0 l = run ws mux0 l.
Proof. exact (fresh_run ws l mux0 (Inv0 ws) Uniq0). Qed.

Lemma register_increases ws s c l :
  m_next s + N.of_nat (S (length l)) < two64 -> enabled s (Register c) = true ->
  m_next s < m_next (run ws s (Register c :: l)).
Proof.
  intros Hb En. destruct (bound_step ws s (Register c) _ Hb) as [Hb1 Hb2].
  pose proof (next_run ws l _ Hb2) as H. rewrite run_cons. revert H. unfold mstep. rewrite En. cbn [negb].
  rewrite (N.mod_small _ _ Hb1). destruct (isSome (aget (m_pending s) (m_next s))); simp_m; lia.
Qed.

Lemma own_response_inv ws s c f :
  Inv ws s -> In (c, OGot f) (m_out s) -> aget (m_issued s) c = Some (f_id f).
Proof.
  intros HI Hin. destruct (I_out _ _ HI _ _ Hin) as [A _]. exact (In_aget _ _ _ (I_iss_c _ _ HI) A).
Qed.

Lemma mstep_recv ws s f : mstep ws s (Recv f) = route ws (deliver s) f.
Proof. reflexivity. Qed.

Lemma recv_clears_id ws s f :
  ws && negb (f_notify f =? 0) = false -> aget (m_pending (mstep ws s (Recv f))) (f_id f) = None.
Proof.
  intros E. rewrite mstep_recv. destruct (aget (m_pending (deliver s)) (f_id f)) as [c|] eqn:P.
  - rewrite (route_match ws _ f c E P). simp_m. rewrite aget_adel, N.eqb_refl. reflexivity.
  - rewrite (route_drop ws _ f E P). exact P.
Qed.

Lemma recv_matches ws s f c :
  m_matched s = None -> ws && negb (f_notify f =? 0) = false -> aget (m_pending s) (f_id f) = Some c ->
  m_matched (mstep ws s (Recv f)) = Some (c, f).
Proof. intros M E P. rewrite mstep_recv, (deliver_none s M), (route_match ws s f c E P). reflexivity. Qed.

Lemma reply_tags_app a b : reply_tags (a ++ b) = reply_tags a ++ reply_tags b.
Proof.
  induction a as [|st a IH]; cbn [app reply_tags]; [reflexivity|].
  destruct st as [c|c|f|[k v|i v|k v|i v]| |c|c|c i|c]; cbn [app]; rewrite IH; reflexivity.
Qed.
Lemma notify_tags_app a b : notify_tags (a ++ b) = notify_tags a ++ notify_tags b.
Proof.
  induction a as [|st a IH]; cbn [app notify_tags]; [reflexivity|].
  destruct st as [c|c|f|[k v|i v|k v|i v]| |c|c|c i|c]; cbn [app]; rewrite IH; reflexivity.
Qed.

Lemma tag_mod k v : k < 4096 -> tag_of k v mod 4096 = k.
Proof. intros H. unfold tag_of. rewrite (N.mul_comm 4096 v), N.mod_add by discriminate. exact (N.mod_small _ _ H). Qed.

(** what the oracle is shown for a call that ended with [o] *)
Definition oc_end (o : outcome) : oc :=
  match o with
  | OGot f => CGot (f_tag f) | OTimeout => CTimeout | OCancel => CCancel | ORefused => CRefused | ONotified => CNone
  end.

Lemma oc_of_out s c o : aget (m_out s) c = Some o -> oc_of s c = oc_end o.
Proof. unfold oc_of. intros ->. destruct o; reflexivity. Qed.

Lemma ok_caller_mono h h' c o : ok_caller h c (oc_end o) = true -> ok_caller (h ++ h') c (oc_end o) = true.
Proof.
  destruct o as [f| | | |]; cbn [oc_end ok_caller];
    unfold timed_out, cancelled, may_refuse, notify_forwarded; rewrite ?reply_tags_app, ?existsb_app; intros H.
  - apply andb_true_iff in H. destruct H as [H1 H2]. rewrite H1. apply memN_In, in_or_app. left. apply memN_In, H2.
  - rewrite H. reflexivity.
  - rewrite H. reflexivity.
  - apply orb_true_iff in H. destruct H as [H|H]; [rewrite H; reflexivity|].
    apply andb_true_iff in H. destruct H as [H1 H2]. rewrite H1, H2. apply orb_true_r.
  - rewrite H. reflexivity.
Qed.

(** every outcome, and the frame about to be handed over, passes the oracle's test
    for its caller; a caller the server has answered has an outcome or is about to
    get one; the subscriber has seen exactly the notifications *)
Record Hist (ws : bool) (h : list step) (s : mux) : Prop := mkHist {
  H_out : forall c o, In (c, o) (m_out s) -> ok_caller h c (oc_end o) = true;
  H_match : forall c f, m_matched s = Some (c, f) -> ok_caller h c (CGot (f_tag f)) = true;
  H_rep : forall c, replied h c = true -> aget (m_out s) c <> None \/ exists f, m_matched s = Some (c, f);
  H_sub : map f_tag (m_sub s) = if ws then notify_tags h else []
}.

Lemma Hist0 ws : Hist ws [] mux0.
Proof.
  constructor; cbn [mux0 m_out m_matched m_sub]; try (intros; contradiction); try (intros; discriminate).
  destruct ws; reflexivity.
Qed.

Lemma Hist_deliver ws h s : Hist ws h s -> Hist ws h (deliver s).
Proof.
  intros [Out Match Rep Sub]. unfold deliver. destruct (m_matched s) as [[c f]|] eqn:M; [|constructor; rewrite ?M; assumption].
  assert (R : forall c', replied h c' = true -> c' = c \/ aget (m_out s) c' <> None).
  { intros c' Hr. destruct (Rep c' Hr) as [A|[f' A]]; [right; exact A|left; congruence]. }
  destruct (aget (m_out s) c) as [o|] eqn:O; constructor; simp_m; try assumption; try discriminate.
  - intros c' Hr. left. destruct (R c' Hr) as [->|A]; congruence.
  - intros c' o' H. apply in_app_or in H. destruct H as [H|[[= <- <-]|[]]]; [exact (Out c' o' H)|exact (Match c f eq_refl)].
  - intros c' Hr. left. rewrite aget_app. destruct (R c' Hr) as [->|A].
    + rewrite O. cbn [aget]. rewrite N.eqb_refl. discriminate.
    + destruct (aget (m_out s) c'); congruence.
Qed.

Lemma Hist_same ws h s s' :
  Hist ws h s -> m_matched s' = m_matched s -> m_out s' = m_out s -> m_sub s' = m_sub s -> Hist ws h s'.
Proof. intros [Out Match Rep Sub] E1 E2 E3. constructor; rewrite ?E1, ?E2, ?E3; assumption. Qed.

Lemma Hist_end ws h s s' c o :
  Hist ws h s -> m_matched s' = m_matched s -> m_out s' = m_out s ++ [(c, o)] -> m_sub s' = m_sub s ->
  ok_caller h c (oc_end o) = true -> Hist ws h s'.
Proof.
  intros [Out Match Rep Sub] E1 E2 E3 Ho. constructor; rewrite ?E1, ?E2, ?E3; try assumption.
  - intros c' o' H. apply in_app_or in H. destruct H as [H|[[= <- <-]|[]]]; [exact (Out c' o' H)|exact Ho].
  - intros c' Hr. destruct (Rep c' Hr) as [A|A]; [|right; exact A]. left. rewrite aget_app.
    destruct (aget (m_out s) c'); congruence.
Qed.

(** one more step [st] in the history while the reader, at most, takes a frame:
    the new matched frame has to pass the oracle's test, and whoever [st] answers
    has to be accounted for *)
Lemma Hist_grow ws h st s s' :
  Hist ws h s -> m_out s' = m_out s ->
  map f_tag (m_sub s') = map f_tag (m_sub s) ++ (if ws then notify_tags [st] else []) ->
  m_matched s' = m_matched s \/
    m_matched s = None /\ (forall c f, m_matched s' = Some (c, f) -> ok_caller (h ++ [st]) c (CGot (f_tag f)) = true) ->
  (forall k v, st = Srv (SReply k v) -> aget (m_out s') k <> None \/ exists f, m_matched s' = Some (k, f)) ->
  Hist ws (h ++ [st]) s'.
Proof.
  intros [Out Match Rep Sub] Eo Es Hm Hr. constructor.
  - rewrite Eo. intros c o H. apply ok_caller_mono, (Out c o H).
  - intros c f M'. destruct Hm as [E|[_ J]]; [|exact (J c f M')].
    rewrite E in M'. apply (ok_caller_mono h [st] c (OGot f)), (Match c f M').
  - intros c R. unfold replied in R. rewrite existsb_app in R. apply orb_true_iff in R. destruct R as [R|R].
    + rewrite Eo. destruct (Rep c R) as [A|[f A]]; [left; exact A|]. destruct Hm as [E|[E _]]; [|congruence].
      right. exists f. rewrite E. exact A.
    + destruct st as [| | |[k v| | |]| | | | |]; try discriminate R.
      cbn [existsb] in R. rewrite orb_false_r in R. apply N.eqb_eq in R. subst c. exact (Hr k v eq_refl).
  - rewrite Es, Sub, notify_tags_app. destruct ws; reflexivity.
Qed.

(** the shape [Hist_grow] asks for when the subscriber gets nothing *)
Lemma app_if_nil {A} (b : bool) (l : list A) : l = l ++ (if b then [] else []).
Proof. destruct b; symmetry; apply app_nil_r. Qed.

Definition quiet (st : step) : bool := match st with Srv _ | Recv _ => false | _ => true end.

Lemma Hist_snoc ws h st s : quiet st = true -> Hist ws h s -> Hist ws (h ++ [st]) s.
Proof.
  intros Q HH. apply (Hist_grow ws h st s s HH); try reflexivity.
  - destruct st; try discriminate; apply app_if_nil.
  - left. reflexivity.
  - intros k v ->. discriminate Q.
Qed.

Lemma Hist_drop ws h st s f :
  Hist ws h s -> notify_tags [st] = [] -> f_notify f = 0 -> aget (m_pending s) (f_id f) = None ->
  (forall k v, st = Srv (SReply k v) -> aget (m_out s) k <> None \/ exists f, m_matched s = Some (k, f)) ->
  Hist ws (h ++ [st]) (route ws s f).
Proof.
  intros HH Nt F0 P Hr. rewrite route_drop; [|rewrite F0; apply andb_false_r|exact P].
  apply (Hist_grow ws h st s _ HH); try reflexivity; [|left; reflexivity|exact Hr].
  rewrite Nt. apply app_if_nil.
Qed.

Lemma Hist_notify h st s f :
  Hist true h s -> notify_tags [st] = [f_tag f] -> f_notify f <> 0 -> (forall k v, st <> Srv (SReply k v)) ->
  Hist true (h ++ [st]) (route true s f).
Proof.
  intros HH Nt F1 Hr. rewrite (route_notify s f F1).
  apply (Hist_grow true h st s _ HH); try reflexivity; [|left; reflexivity|intros k v E; destruct (Hr k v E)].
  rewrite Nt. apply map_app.
Qed.

Lemma Hist_route ws n h s a f :
  Inv ws s -> Hist ws h s -> m_matched s = None -> n < unknown_k -> step_ok ws n (Srv a) = true ->
  frame_of s a = Some f -> srv_own s (Srv a) = true ->
  Hist ws (h ++ [Srv a]) (route ws s f).
Proof.
  intros HI HH M Hn Hok Hf Hso.
  unfold step_ok in Hok. cbn [is_raw negb andb] in Hok.
  apply andb_true_iff in Hok. destruct Hok as [Hok _]. apply andb_true_iff in Hok. destruct Hok as [Hc Hw].
  (* [f] is read off [Hf] by [congruence]: [injection] would simplify the closed summand of
     [unknown_k + 4096 * v] into a twelve-level [match] that every later step has to carry *)
  destruct a as [k v|id v|k v|id v]; cbn [frame_of] in Hf.
  - destruct (aget (m_wire s) k) as [id|] eqn:W; [|discriminate].
    assert (f = mkFrame id 0 (tag_of k v)) as -> by congruence.
    destruct (aget (m_pending s) id) as [c|] eqn:P.
    + (* matched: the entry under the id is [k]'s own *)
      cbn [srv_own] in Hso. rewrite W, P in Hso. apply N.eqb_eq in Hso. subst c.
      rewrite (route_match ws s _ k); [|apply andb_false_r|exact P].
      apply (Hist_grow ws h _ s _ HH); try reflexivity; simp_m; [apply app_if_nil| |].
      * right. split; [exact M|]. intros c f [= <- <-]. cbn [f_tag ok_caller].
        apply N.ltb_lt in Hc. unfold unknown_k in Hn.
        rewrite tag_mod, N.eqb_refl, reply_tags_app by lia. apply memN_In, in_or_app. right. left. reflexivity.
      * intros k' v' [= <- <-]. right. eexists. reflexivity.
    + (* dropped: the call has ended, or its frame is in hand *)
      apply Hist_drop; [exact HH|reflexivity|reflexivity|exact P|]. intros k' v' [= <- <-].
      left. intros Ho. apply aget_Some_In, (I_wire _ _ HI) in W.
      assert (B : In (id, k) (m_pending s)) by (apply (I_pend _ _ HI); rewrite M; repeat split; try assumption; discriminate).
      apply (In_aget _ _ _ (I_pend_nd _ _ HI)) in B. congruence.
  - (* an id no request carries: dropped *)
    destruct (memN id (map snd (m_issued s))) eqn:Mi; [discriminate|]. apply memN_false in Mi.
    assert (f = mkFrame id 0 (tag_of unknown_k v)) as -> by congruence.
    apply Hist_drop; [exact HH|reflexivity|reflexivity| |intros k v' [=]].
    cbn [f_id]. destruct (aget (m_pending s) id) as [c|] eqn:P; [|reflexivity]. destruct Mi.
    apply aget_Some_In, (pending_issued ws s id c HI), (in_map snd) in P. exact P.
  - (* a notification reusing an in-flight id *)
    destruct (aget (m_wire s) k) as [id|] eqn:W; [|discriminate].
    assert (f = mkFrame id 1 (tag_of k v)) as -> by congruence.
    cbn [is_notify negb] in Hw. rewrite orb_false_r in Hw. subst ws.
    apply Hist_notify; [exact HH|reflexivity|discriminate|intros k' v' [=]].
  - assert (f = mkFrame id 1 (tag_of unknown_k v)) as -> by congruence.
    cbn [is_notify negb] in Hw. rewrite orb_false_r in Hw. subst ws.
    apply Hist_notify; [exact HH|reflexivity|discriminate|intros k' v' [=]].
Qed.

Lemma Hist_finish ws h s c o : Hist ws h s -> ok_caller h c (oc_end o) = true -> Hist ws h (finish s c o).
Proof.
  intros HH Ho. unfold finish. destruct (aget (m_issued s) c); [|exact HH].
  apply (Hist_end ws h s _ c o HH); try reflexivity. exact Ho.
Qed.

Lemma Hist_step ws n h s st :
  Inv ws s -> Hist ws h s -> (existsb is_forward h = false -> Low s) -> n < unknown_k ->
  step_ok ws n st = true -> enabled s st = true -> srv_own s st = true ->
  Hist ws (h ++ [st]) (mstep ws s st).
Proof.
  intros HI HH HL Hn Hok En Hso.
  (* unless [st] is a server or reader step, the old state passes for the longer history: [HQ];
     what is left is the change of state. For [Recv] and [Srv] the [specialize] fails, as it should *)
  pose proof (fun Q => Hist_snoc ws h st s Q HH) as HQ.
  revert Hok Hso HQ. apply mstep_cases; [congruence|intros s' T].
  destruct T as [c Ei Eo P|c Ei Eo P|c id Ei Eo P|c id Ei Eo P|c Ei Eo|c id Ei Ew|f|a f F| |c id Ew Eo|c id Ei Eo];
    intros Hok Hso HQ; try specialize (HQ eq_refl).
  - apply (Hist_same ws _ s _ HQ); reflexivity.
  - apply (Hist_end ws _ s _ c ORefused HQ); try reflexivity.
    (* a refused counter id: some forwarded call must have taken it *)
    cbn [oc_end ok_caller]. destruct (existsb is_forward h) eqn:Fw.
    + apply orb_true_iff. right. apply andb_true_iff. split; [apply existsb_snoc_true, N.eqb_refl|].
      rewrite existsb_app, Fw. reflexivity.
    + destruct P. exact (Low_pending ws s HI (HL eq_refl)).
  - apply (Hist_same ws _ s _ HQ); reflexivity.
  - apply (Hist_end ws _ s _ c ORefused HQ); try reflexivity.
    apply orb_true_iff. left. apply existsb_snoc_true, N.eqb_refl.
  - apply (Hist_end ws _ s _ c ONotified HQ); try reflexivity. apply existsb_snoc_true, N.eqb_refl.
  - apply (Hist_same ws _ s _ HQ); reflexivity.
  - discriminate Hok.
  - rewrite <- frame_of_deliver in F. rewrite <- srv_own_deliver in Hso.
    exact (Hist_route ws n h _ a f (Inv_deliver ws s HI) (Hist_deliver ws h s HH) (deliver_matched s) Hn Hok F Hso).
  - apply Hist_deliver, HQ.
  - apply Hist_finish; [exact HQ|]. apply existsb_snoc_true, N.eqb_refl.
  - apply Hist_finish; [exact HQ|]. apply existsb_snoc_true, N.eqb_refl.
Qed.

Lemma is_counter_snoc h st c :
  is_counter (h ++ [st]) c = is_counter h c || (match st with Register k => k =? c | _ => false end).
Proof. unfold is_counter. rewrite existsb_app. cbn [existsb]. rewrite orb_false_r. reflexivity. Qed.

(** what the oracle's last conjunct, [nodupb (o_ids o)], needs of the run so far: the callers
    with a [Register] step behind them hold counter ids; and each of them has started, so that
    no later [Forward] gives one of them an id of its own choosing *)
Record Cnt (h : list step) (s : mux) : Prop := mkCnt {
  K_ctr : Ctr (is_counter h) s;
  K_done : forall c, is_counter h c = true -> started s c
}.

Lemma Cnt0 : Cnt [] mux0.
Proof. constructor; [apply Ctr0|intros c C; discriminate C]. Qed.

Lemma register_starts ws s c : enabled s (Register c) = true -> started (mstep ws s (Register c)) c.
Proof.
  intros En. unfold mstep. rewrite En. cbn [negb].
  destruct (isSome (aget (m_pending s) (m_next s))); [right|left]; simp_m; rewrite map_app; apply in_or_app; right; left; reflexivity.
Qed.

Lemma Cnt_step ws h s st :
  Cnt h s -> enabled s st = true -> m_next s + 1 < two64 -> Cnt (h ++ [st]) (mstep ws s st).
Proof.
  intros [HC HD] En Hb. constructor.
  - apply Ctr_step; [apply (Ctr_ext (is_counter h)); [|exact HC]|exact Hb|].
    + (* whoever registers now has no registration yet *)
      intros c id Hin. rewrite is_counter_snoc. destruct st as [k| | | | | | | |]; try apply orb_false_r.
      destruct (N.eqb_spec k c) as [->|_]; [|apply orb_false_r].
      rewrite (started_disabled s c) in En; [discriminate En|]. left. apply (in_map fst) in Hin. exact Hin.
    + (* [Forward c id] is enabled: [c] has no [Register] step behind it *)
      intros c id ->. rewrite is_counter_snoc, orb_false_r. destruct (is_counter h c) eqn:C; [|reflexivity].
      rewrite (started_disabled s c (HD c C) : enabled s (Forward c id) = false) in En. discriminate En.
  - intros c C. rewrite is_counter_snoc in C. apply orb_true_iff in C. destruct C as [C|C].
    + apply started_step, HD, C.
    + destruct st as [k| | | | | | | |]; try discriminate C. apply N.eqb_eq in C. subst k. exact (register_starts ws s c En).
Qed.

Lemma counter_ids_nodup ws h s : Inv ws s -> Cnt h s ->
  NoDup (map snd (filter (fun ci => is_counter h (fst ci)) (m_wire s))).
Proof.
  intros HI [[_ Nd] _]. apply (NoDup_snd_sub _ _ (NoDup_filter_fst _ _ (I_wire_nd _ _ HI)) Nd).
  intros [c id] Hin. apply filter_In in Hin. apply filter_In. split; [apply (I_wire _ _ HI)|]; apply Hin.
Qed.

Lemma Hist_run ws n l : forall h s,
  Inv ws s -> Hist ws h s -> Cnt h s -> (existsb is_forward h = false -> Low s) ->
  n < unknown_k -> forallb (step_ok ws n) l = true -> all_enabled ws s l = true ->
  all_srv_own ws s l = true -> m_next s + N.of_nat (length l) < two64 ->
  Hist ws (h ++ l) (run ws s l) /\ Cnt (h ++ l) (run ws s l).
Proof.
  induction l as [|st l IH]; intros h s HI HH HC HL Hn Hok En Hf Hb.
  - rewrite app_nil_r. split; assumption.
  - cbn [forallb all_enabled all_srv_own] in Hok, En, Hf. apply andb_true_iff in Hok, En, Hf.
    destruct Hok as [Hok1 Hok2], En as [En1 En2], Hf as [Hf1 Hf2].
    destruct (bound_step ws s st _ Hb) as [Hb1 Hb2].
    rewrite run_cons, (app_assoc h [st] l : h ++ st :: l = _).
    apply IH; try assumption.
    + apply Inv_step; assumption.
    + eapply Hist_step; eassumption.
    + apply Cnt_step; assumption.
    + rewrite existsb_app. cbn [existsb]. rewrite orb_false_r. intros E. apply orb_false_iff in E.
      destruct E as [E1 E2]. apply Low_step; [exact (HL E1)|exact Hb1|exact E2].
Qed.

Lemma ins_sorted_perm x l : Permutation (ins_sorted x l) (x :: l).
Proof.
  induction l as [|y l IH]; cbn [ins_sorted]; [reflexivity|].
  destruct (x <=? y); [reflexivity|]. rewrite IH. apply perm_swap.
Qed.

Lemma sortN_perm l : Permutation (sortN l) l.
Proof.
  induction l as [|y l IH]; [reflexivity|]. cbn [sortN fold_right]. fold (sortN l).
  rewrite ins_sorted_perm, IH. reflexivity.
Qed.

Lemma nodupb_iff l : nodupb l = true <-> NoDup l.
Proof.
  induction l as [|x l IH]; cbn [nodupb]; [split; [constructor|reflexivity]|].
  rewrite andb_true_iff, negb_true_iff, memN_false, IH, NoDup_cons_iff. reflexivity.
Qed.

Lemma NoDup_nodupb l : nodupb l = true -> NoDup l.
Proof. apply nodupb_iff. Qed.

Lemma ok_callers_map l s cs :
  (forall c, In c cs -> ok_caller l c (oc_of s c) = true) -> ok_callers l cs (map (oc_of s) cs) = true.
Proof.
  induction cs as [|c cs IH]; cbn [map ok_callers]; intros H; [reflexivity|].
  rewrite (H c (or_introl eq_refl)). cbn [andb]. apply IH. intros c' Hc'. apply H. right. exact Hc'.
Qed.

Lemma ok_caller_final ws l s c :
  Hist ws l s -> m_matched s = None -> ok_caller l c (oc_of s c) = true.
Proof.
  intros HH M. destruct (aget (m_out s) c) as [o|] eqn:O.
  - rewrite (oc_of_out s c o O). apply (H_out _ _ _ HH), aget_Some_In, O.
  - unfold oc_of. rewrite O. cbn [ok_caller]. destruct (replied l c) eqn:R; [|reflexivity].
    destruct (H_rep _ _ _ HH c R) as [A|[f A]]; congruence.
Qed.

Lemma listN_eqb_refl' l : listN_eqb l l = true.
Proof. exact (listN_eqb_refl l). Qed.

Lemma ok_model_C04 cs : c04_wf cs = true -> ok_C04 cs (model_C04 cs) = true.
Proof.
  unfold c04_wf. intros [[[[[Hn%N.ltb_lt Hlen%N.ltb_lt]%andb_prop Hok]%andb_prop Hen]%andb_prop Hso]%andb_prop _]%andb_prop.
  destruct (Hist_run (c_ws cs) (c_n cs) (c_sched cs) [] mux0 (Inv0 _) (Hist0 _) Cnt0 (fun _ => Ctr0 _) Hn Hok Hen Hso)
    as [HH HC].
  { cbn [mux0 m_next]. unfold two32, two64 in *. lia. }
  cbn [app] in HH, HC. apply Hist_deliver in HH.
  unfold ok_C04, model_C04, obs_of. cbn [o_out o_sub o_ids].
  rewrite ok_callers_map.
  - rewrite (H_sub _ _ _ HH), listN_eqb_refl. cbn [andb].
    unfold counter_ids. apply nodupb_iff, (Permutation_NoDup (Permutation_sym (sortN_perm _))). rewrite deliver_eq. exact (counter_ids_nodup _ _ _ (Inv_reach _ _) HC).
  - intros c _. exact (ok_caller_final _ _ _ c HH (deliver_matched _)).
Qed.

(** a WebSocket client without a subscriber: same calls, nothing delivered *)
Lemma ok_C04_drop_sub cs o : ok_C04 cs o = true -> ok_C04_nosub cs (drop_sub o) = true.
Proof.
  unfold ok_C04, ok_C04_nosub, drop_sub. cbn [o_out o_sub o_ids].
  intros [[K1 _]%andb_prop K3]%andb_prop. rewrite K1, K3. reflexivity.
Qed.

Lemma forward_refused_state ws s c id o :
  aget (m_pending s) id = Some o -> enabled s (Forward c id) = true ->
  mstep ws s (Forward c id) = ended s (m_next s) c ORefused.
Proof. intros P En. unfold mstep. rewrite En, P. reflexivity. Qed.

Lemma owner_keeps_id ws s id o l f :
  Inv ws s -> aget (m_pending s) id = Some o -> In (o, OGot f) (m_out (run ws s l)) -> f_id f = id.
Proof.
  intros HI P Hin. pose proof (Inv_run ws l s HI) as HIr.
  pose proof (own_response_inv ws _ o f HIr Hin) as A.
  assert (B : In (o, id) (m_issued (run ws s l))).
  { apply (run_inv ws (fun s0 => In (o, id) (m_issued s0))); [|exact (pending_issued ws s id o HI (aget_Some_In _ _ _ P))].
    intros s0 st0 H. apply issued_mono_step, H. }
  apply (In_aget _ _ _ (I_iss_c _ _ HIr)) in B. congruence.
Qed.

Lemma nth_error_set_nth {A} (l : list A) i j x :
  nth_error (set_nth i x l) j
  = if Nat.eqb i j then (match nth_error l j with Some _ => Some x | None => None end) else nth_error l j.
Proof.
  revert i j. induction l as [|y l IH]; intros i j.
  - destruct i; cbn [set_nth]; destruct j; cbn [nth_error Nat.eqb]; try reflexivity.
    destruct (Nat.eqb i j); reflexivity.
  - destruct i as [|i], j as [|j]; cbn [set_nth nth_error Nat.eqb]; try reflexivity. apply IH.
Qed.

Lemma set_nth_length {A} (l : list A) i x : length (set_nth i x l) = length l.
Proof.
  revert i. induction l as [|y l IH]; intros i; destruct i; cbn [set_nth length]; try reflexivity.
  rewrite IH. reflexivity.
Qed.

Definition genuine (reqs : list N) (it : N * N) : Prop := nth_error reqs (N.to_nat (fst it)) = Some (snd it).

Lemma In_combine_seq (l : list N) : forall a i r,
  In (i, r) (combine (map N.of_nat (seq a (length l))) l) <->
  exists j, i = N.of_nat (a + j) /\ nth_error l j = Some r.
Proof.
  induction l as [|x l IH]; intros a i r; cbn [length seq map combine In].
  - split; [contradiction|]. intros (j & _ & H). destruct j; discriminate H.
  - rewrite IH. split.
    + intros [[= <- <-]|(j & -> & H)].
      * exists 0%nat. rewrite Nat.add_0_r. split; reflexivity.
      * exists (S j). rewrite Nat.add_succ_r. split; [reflexivity|exact H].
    + intros (j & -> & H). destruct j as [|j]; cbn [nth_error] in H.
      * left. injection H as ->. rewrite Nat.add_0_r. reflexivity.
      * right. exists j. rewrite Nat.add_succ_r. split; [reflexivity|exact H].
Qed.

Lemma indexed_genuine reqs : Forall (genuine reqs) (indexed reqs).
Proof.
  apply Forall_forall. intros [i r] Hin. apply In_combine_seq in Hin. destruct Hin as (j & -> & H).
  unfold genuine. cbn [fst snd]. rewrite Nat2N.id. exact H.
Qed.

(** items are genuine, a stored result answers the request at its index, and no
    request is lost: an index without a result is still queued or held *)
Record Binv (res_of : N -> N) (reqs : list N) (s : batch) : Prop := mkBinv {
  B_queue : Forall (genuine reqs) (b_queue s);
  B_hold : forall w it, In (w, it) (b_hold s) -> genuine reqs it;
  B_nd : NoDup (map fst (b_hold s));
  B_len : length (b_res s) = length reqs;
  B_res : forall i r, nth_error (b_res s) i = Some (Some r) ->
      exists q, nth_error reqs i = Some q /\ r = res_of q;
  B_none : forall i, nth_error (b_res s) i = Some None ->
      (exists r, In (N.of_nat i, r) (b_queue s)) \/ (exists w r, In (w, (N.of_nat i, r)) (b_hold s))
}.

Lemma Binv0 res_of reqs : Binv res_of reqs (batch0 reqs).
Proof.
  constructor; cbn [batch0 b_queue b_hold b_res].
  - apply indexed_genuine.
  - intros w it H. contradiction.
  - constructor.
  - apply repeat_length.
  - intros i r H. apply nth_error_In, repeat_spec in H. discriminate.
  - intros i H. left. destruct (nth_error reqs i) as [r|] eqn:E.
    + exists r. apply In_combine_seq. exists i. split; [reflexivity|exact E].
    + apply nth_error_None in E. rewrite <- (repeat_length (@None N) (length reqs)) in E.
      apply nth_error_None in E. congruence.
Qed.

Lemma Binv_step res_of reqs s w : Binv res_of reqs s -> Binv res_of reqs (bstep res_of s w).
Proof.
  intros [Q H ND L R F]. unfold bstep. destruct (aget (b_hold s) w) as [[i r]|] eqn:E.
  - apply aget_Some_In in E. pose proof (H _ _ E) as G. unfold genuine in G. cbn [fst snd] in G.
    constructor; cbn [b_queue b_hold b_res]; try assumption.
    + intros w' it Hin. destruct it as [i' r']. apply In_adel in Hin. exact (H _ _ (proj2 Hin)).
    + apply NoDup_adel. exact ND.
    + rewrite set_nth_length. exact L.
    + intros j x Hj. rewrite nth_error_set_nth in Hj. destruct (Nat.eqb_spec (N.to_nat i) j) as [<-|Ej].
      * destruct (nth_error (b_res s) (N.to_nat i)); [|discriminate]. injection Hj as <-.
        exists r. split; [exact G|reflexivity].
      * exact (R j x Hj).
    + intros j Hj. rewrite nth_error_set_nth in Hj. destruct (Nat.eqb_spec (N.to_nat i) j) as [Ej|Ej].
      * destruct (nth_error (b_res s) j); discriminate.
      * destruct (F j Hj) as [A|[w' [r' A]]]; [left; exact A|]. right. exists w', r'.
        apply In_adel. split; [|exact A]. intros ->.
        pose proof (assoc_fun _ _ _ _ ND E A) as [= -> _]. apply Ej, Nat2N.id.
  - destruct (b_queue s) as [|it q] eqn:Eq; [constructor; rewrite ?Eq; assumption|].
    inversion Q as [|a b Ga Gq]; subst a b.
    constructor; cbn [b_queue b_hold b_res]; try assumption.
    + intros w' it' [[= <- <-]|Hin]; [exact Ga|exact (H _ _ Hin)].
    + cbn [map fst]. constructor; [apply aget_None; exact E|exact ND].
    + intros j Hj. destruct (F j Hj) as [[r [->|A]]|[w' [r A]]].
      * right. exists w, r. left. reflexivity.
      * left. exists r. exact A.
      * right. exists w', r. right. exact A.
Qed.

Lemma Binv_run res_of reqs sched : Binv res_of reqs (brun res_of reqs sched).
Proof.
  unfold brun. generalize (Binv0 res_of reqs). generalize (batch0 reqs).
  induction sched as [|w sched IH]; intros s HB; [exact HB|]. exact (IH _ (Binv_step _ _ s w HB)).
Qed.

Lemma Binv_complete res_of reqs s i q :
  Binv res_of reqs s -> b_queue s = [] -> b_hold s = [] -> nth_error reqs i = Some q ->
  nth_error (b_res s) i = Some (Some (res_of q)).
Proof.
  intros [_ _ _ L R F] Hq Hh Hi. destruct (nth_error (b_res s) i) as [[r|]|] eqn:E.
  - destruct (R i r E) as [q' [A B]]. congruence.
  - destruct (F i E) as [[r A]|[w [r A]]]; [rewrite Hq in A|rewrite Hh in A]; contradiction.
  - apply nth_error_None in E. rewrite L in E. apply nth_error_None in E. congruence.
Qed.
