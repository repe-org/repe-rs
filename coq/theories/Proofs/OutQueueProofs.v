(** Proofs about the bounded outbound channel ([Model/OutQueue.v]).  Every step is one of four moves
    ([step_spec]); conservation, the bound and the order are invariants of those moves along a
    schedule ([qrun_inv]); delivery is a measure that every enabled waiting action decreases. *)
From RepeV Require Import Model.OutQueue.
From Coq Require Import Permutation.

Section Proofs.
Context {A : Set}.
Notation qst := (qst A).

Lemma take_head_inv : forall (progs : list (list A)) i x progs',
  take_head progs i = Some (x, progs') ->
  exists pre p post, progs = pre ++ (x :: p) :: post /\ progs' = pre ++ p :: post.
Proof.
  induction progs as [|p rest IH]; intros i x progs' H; cbn [take_head] in H; [discriminate|].
  destruct i as [|i'].
  - destruct p as [|y p']; [discriminate|]. injection H as -> <-. exists [], p', rest. split; reflexivity.
  - destruct (take_head rest i') as [[y rest']|] eqn:E; [|discriminate]. injection H as -> <-.
    destruct (IH _ _ _ E) as (pre & p' & post & -> & ->). exists (p :: pre), p', post. split; reflexivity.
Qed.

Lemma take_head_perm : forall (progs : list (list A)) i x progs',
  take_head progs i = Some (x, progs') -> Permutation (x :: concat progs') (concat progs).
Proof.
  intros progs i x progs' H. destruct (take_head_inv _ _ _ _ H) as (pre & p & post & -> & ->).
  rewrite !concat_app. apply (Permutation_middle (concat pre) (p ++ concat post) x).
Qed.

Lemma take_head_some : forall (progs : list (list A)),
  concat progs <> [] -> exists i x progs', take_head progs i = Some (x, progs').
Proof.
  induction progs as [|p rest IH]; intros H; [contradiction H; reflexivity|].
  destruct p as [|y p'].
  - destruct (IH H) as (i & x & progs' & E).
    exists (S i), x, ([] :: progs'). cbn [take_head]. rewrite E. reflexivity.
  - exists O, y, (p' :: rest). reflexivity.
Qed.

(** ** one step: nothing (the action is not enabled), the head of a program moves into the
    queue (or is lost: [TrySend] on a full queue), or the oldest queued message moves to the wire *)
Inductive step_spec (s : qst) : qact -> qst -> Prop :=
| ss_idle a : enabled s a = false -> step_spec s a s
| ss_send i x progs' : take_head (q_progs s) i = Some (x, progs') -> has_room s = true ->
    step_spec s (Send i) (mkQ (q_cap s) progs' (q_items s ++ [x]) (q_wire s))
| ss_try i x progs' : take_head (q_progs s) i = Some (x, progs') ->
    step_spec s (TrySend i)
      (mkQ (q_cap s) progs' (if has_room s then q_items s ++ [x] else q_items s) (q_wire s))
| ss_drain y rest : q_items s = y :: rest ->
    step_spec s Drain (mkQ (q_cap s) (q_progs s) rest (q_wire s ++ [y])).

Lemma qstepP (s : qst) a : step_spec s a (qstep s a).
Proof.
  destruct a as [i| |i]; unfold qstep.
  - destruct (take_head (q_progs s) i) as [[x progs']|] eqn:T; [|apply ss_idle; cbn [enabled]; rewrite T; reflexivity].
    destruct (has_room s) eqn:R; [apply ss_send; assumption|apply ss_idle; cbn [enabled]; rewrite T; exact R].
  - destruct (q_items s) as [|y rest] eqn:E; [apply ss_idle; cbn [enabled]; rewrite E; reflexivity|].
    apply ss_drain. exact E.
  - destruct (take_head (q_progs s) i) as [[x progs']|] eqn:T; [|apply ss_idle; cbn [enabled]; rewrite T; reflexivity].
    pose proof (ss_try s i x progs' T) as H. destruct (has_room s); exact H.
Qed.

Lemma qrun_inv (P : qst -> Prop) acts :
  (forall s a, In a acts -> P s -> P (qstep s a)) -> forall s, P s -> P (qrun s acts).
Proof. exact (fold_left_invariant (@qstep A) P acts). Qed.

(** ** nothing is lost, nothing is duplicated (waiting sends) *)
Lemma step_conserves : forall (s : qst) a, waiting_act a = true -> Permutation (all_of (qstep s a)) (all_of s).
Proof.
  intros s a Hw. destruct (qstepP s a) as [a _|i x progs' T _|i x progs' T|y rest E];
    [apply Permutation_refl| |discriminate|]; unfold all_of; cbn [q_wire q_items q_progs].
  - apply Permutation_app_head. rewrite <- app_assoc. apply Permutation_app_head.
    exact (take_head_perm _ _ _ _ T).
  - rewrite E, <- app_assoc. apply Permutation_refl.
Qed.

Theorem run_conserves : forall acts (s : qst),
  forallb waiting_act acts = true -> Permutation (all_of (qrun s acts)) (all_of s).
Proof.
  intros acts s Hw. apply (qrun_inv (fun s' => Permutation (all_of s') (all_of s))); [|apply Permutation_refl].
  intros s' a Hin H. rewrite forallb_forall in Hw.
  exact (Permutation_trans (step_conserves s' a (Hw a Hin)) H).
Qed.

Lemma step_cap : forall (s : qst) a, q_cap (qstep s a) = q_cap s.
Proof. intros s a. destruct (qstepP s a); reflexivity. Qed.

Lemma run_cap : forall acts (s : qst), q_cap (qrun s acts) = q_cap s.
Proof.
  intros acts s. apply (qrun_inv (fun s' => q_cap s' = q_cap s)); [|reflexivity].
  intros s' a _ H. rewrite step_cap. exact H.
Qed.

Lemma has_room_fits (s : qst) x : has_room s = true -> (length (q_items s ++ [x]) <= q_cap s)%nat.
Proof. intros R. apply Nat.ltb_lt in R. rewrite app_length, Nat.add_1_r. exact R. Qed.

Lemma step_bounded : forall (s : qst) a,
  (length (q_items s) <= q_cap s)%nat -> (length (q_items (qstep s a)) <= q_cap (qstep s a))%nat.
Proof.
  intros s a H. rewrite step_cap.
  destruct (qstepP s a) as [a _|i x progs' _ R|i x progs' _|y rest E]; cbn [q_items].
  - exact H.
  - exact (has_room_fits s x R).
  - destruct (has_room s) eqn:R; [exact (has_room_fits s x R)|exact H].
  - rewrite E in H. exact (Nat.lt_le_incl _ _ H).
Qed.

Theorem run_bounded : forall acts (s : qst),
  (length (q_items s) <= q_cap s)%nat ->
  (length (q_items (qrun s acts)) <= q_cap s)%nat /\ q_cap (qrun s acts) = q_cap s.
Proof.
  intros acts s H. split; [|apply run_cap]. rewrite <- (run_cap acts s).
  apply (qrun_inv (fun s' => (length (q_items s') <= q_cap s')%nat)); [|exact H].
  intros s' a _. apply step_bounded.
Qed.

(** ** no deadlock: with a capacity of at least one, while anything is left some waiting
    action is enabled (the writer when the queue is non-empty, a sender otherwise) *)
Theorem no_deadlock : forall (s : qst),
  (0 < q_cap s)%nat -> quiescent s = false ->
  exists a, waiting_act a = true /\ enabled s a = true.
Proof.
  intros s Hc Hq. unfold quiescent in Hq.
  destruct (q_items s) as [|y rest] eqn:E.
  - destruct (concat (q_progs s)) as [|z zs] eqn:C; [discriminate|].
    assert (Hne : concat (q_progs s) <> []) by (rewrite C; discriminate).
    destruct (take_head_some _ Hne) as (i & x & progs' & T).
    exists (Send i). split; [reflexivity|]. unfold enabled, has_room. rewrite T, E. apply Nat.ltb_lt. exact Hc.
  - exists Drain. split; [reflexivity|]. unfold enabled. rewrite E. reflexivity.
Qed.

Lemma step_measure : forall (s : qst) a,
  waiting_act a = true -> enabled s a = true -> S (measure (qstep s a)) = measure s.
Proof.
  intros s a Hw He. destruct (qstepP s a) as [a Hd|i x progs' T _|i x progs' T|y rest E];
    [congruence| |discriminate|]; unfold measure; cbn [q_items q_progs].
  - rewrite <- (Permutation_length (take_head_perm _ _ _ _ T)), app_length. cbn [length]. clear. lia.
  - rewrite E. cbn [length]. clear. lia.
Qed.

Theorem run_measure : forall acts (s : qst),
  forallb waiting_act acts = true -> all_enabled s acts = true ->
  (measure (qrun s acts) + length acts = measure s)%nat.
Proof.
  induction acts as [|a acts IH]; intros s Hw He; [apply Nat.add_0_r|].
  cbn [forallb] in Hw. apply andb_prop in Hw as [Hwa Hwr].
  cbn [all_enabled] in He. apply andb_prop in He as [Hea Her].
  change (qrun s (a :: acts)) with (qrun (qstep s a) acts). cbn [length].
  rewrite <- (step_measure s a Hwa Hea), Nat.add_succ_r, (IH _ Hwr Her). reflexivity.
Qed.

Lemma quiescent_measure : forall (s : qst), quiescent s = true <-> measure s = O.
Proof.
  intros s. unfold quiescent, measure. destruct (q_items s) as [|y r]; destruct (concat (q_progs s)) as [|z zs]; cbn [length]; split; intros H; try reflexivity; try discriminate; lia.
Qed.

Lemma quiescent_all_on_wire : forall (s : qst), quiescent s = true -> all_of s = q_wire s.
Proof.
  intros s H. unfold quiescent in H. unfold all_of.
  destruct (q_items s); [|discriminate]. destruct (concat (q_progs s)); [|discriminate]. rewrite !app_nil_r. reflexivity.
Qed.

(** ** delivery: a schedule of enabled waiting actions is never longer than the work left; a
    maximal one (nothing enabled after it) ends with every message on the wire, exactly once *)
Theorem delivery : forall acts (s : qst),
  (0 < q_cap s)%nat -> forallb waiting_act acts = true -> all_enabled s acts = true ->
  (length acts <= measure s)%nat /\
  ((forall a, waiting_act a = true -> enabled (qrun s acts) a = false) ->
   quiescent (qrun s acts) = true /\ Permutation (q_wire (qrun s acts)) (all_of s)).
Proof.
  intros acts s Hc Hw He. split; [rewrite <- (run_measure acts s Hw He); apply Nat.le_add_l|].
  intros Hmax.
  assert (Hq : quiescent (qrun s acts) = true).
  { destruct (quiescent (qrun s acts)) eqn:Q; [reflexivity|exfalso]. rewrite <- (run_cap acts s) in Hc.
    destruct (no_deadlock _ Hc Q) as (a & Ha & Hea). rewrite (Hmax a Ha) in Hea. discriminate. }
  split; [exact Hq|]. rewrite <- (quiescent_all_on_wire _ Hq). apply run_conserves. exact Hw.
Qed.

(** ** one producer (the reader): the order is kept as well *)
Lemma step_fifo_single : forall (s : qst) a p,
  waiting_act a = true -> q_progs s = [p] ->
  (exists p', q_progs (qstep s a) = [p']) /\ all_of (qstep s a) = all_of s.
Proof.
  intros s a p Hw Hp. destruct (qstepP s a) as [a _|i x progs' T _|i x progs' T|y rest E];
    [split; [exists p; exact Hp|reflexivity]| |discriminate|]; unfold all_of; cbn [q_wire q_items q_progs].
  - destruct (take_head_inv _ _ _ _ T) as (pre & p' & post & E & ->). rewrite Hp in E |- *.
    destruct pre as [|q [|q' pre]]; try discriminate E. injection E as -> <-.
    split; [exists p'; reflexivity|]. cbn [app concat]. rewrite <- app_assoc. reflexivity.
  - split; [exists p; exact Hp|]. rewrite E, <- app_assoc. reflexivity.
Qed.

Theorem run_fifo_single : forall acts (s : qst) p,
  forallb waiting_act acts = true -> q_progs s = [p] -> all_of (qrun s acts) = all_of s.
Proof.
  intros acts s p Hw Hp.
  apply (qrun_inv (fun s' => (exists p', q_progs s' = [p']) /\ all_of s' = all_of s));
    [|split; [exists p; exact Hp|reflexivity]].
  intros s' a Hin [[p' Hp'] Heq]. rewrite forallb_forall in Hw.
  destruct (step_fifo_single s' a p' (Hw a Hin) Hp') as [H1 H2]. split; [exact H1|]. rewrite H2. exact Heq.
Qed.

End Proofs.

(** capacity 1 and two back-to-back waiting sends: the second is not enabled until the writer
    has run, and then both arrive, in order *)
Example send_waits :
  let s := mkQ 1%nat [[1; 2]] [] [] in
  enabled (qrun s [Send 0]) (Send 0) = false /\
  q_wire (qrun s [Send 0; Drain; Send 0; Drain]) = [1; 2].
Proof. vm_compute. split; reflexivity. Qed.
