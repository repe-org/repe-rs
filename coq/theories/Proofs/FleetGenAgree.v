(** Agreement of the hand-written retry-loop model (Model/Fleet.v [retry_loop])
    with the Gallina renderings of the four retry functions that bin/rs2v
    regenerates from /repo/src/fleet.rs and src/async_fleet.rs on every run
    (Gen/FleetGen.v).  All four must equal the ONE model loop.  A function that
    could not be translated is [None] and its lemma degrades to [True]. *)
From RepeV Require Import Model.Fleet Base.GenFleetPrelude Gen.FleetGen.
From RepeV Require Export Proofs.GenAgreeBase.
From Coq Require Import ZifyBool ZifyN ZifyNat.

(** the variables the rendered loop carries: script, cached client, sleeps, attempts made, last_error *)
Definition lstate : Type := (list behaviour * cache * N * N * option ekind)%type.

(** one iteration of the loop: the model's, with the sleep rule (sleep after a
    retryable failure unless it was the last allowed attempt), written in the
    shape of the source's loop body *)
Definition iter_spec (tbl : list bool) (max i : N) (st : lstate) : flow lstate fleet_out :=
  let '(script, c, sl, made, last) := st in
  let '(b, script') := next_b script in
  let '(r, c1) := attempt b c in
  match r with
  | RValue => Return (mkFleetOut (made + 1) RRValue c1 script' sl)
  | RErr k =>
      if retryable_with tbl k
      then if i + 1 <? max
           then Next (script', CNone, sl + 1, made + 1, Some k)
           else Next (script', CNone, sl, made + 1, Some k)
      else Stop (script', c1, sl, made + 1, Some k)
  end.

(** the statement after the loop: [RemoteResult { value: None, error: last_error, .. }] *)
Definition finish (e : loop_end lstate fleet_out) : fleet_out :=
  match e with
  | Returned r => r
  | Fell (script, c, sl, made, last) => mkFleetOut made (RRError last) c script sl
  end.

(** sleeps of the model loop: one after every retryable failure that was not
    the last allowed attempt *)
Fixpoint retry_sleeps (tbl : list bool) (fuel : nat) (script : list behaviour) (c : cache) : N :=
  match fuel with
  | O => 0
  | S fuel' =>
      let '(b, script') := next_b script in
      let '(r, _) := attempt b c in
      match r with
      | RValue => 0
      | RErr k =>
          if retryable_with tbl k
          then (match fuel' with O => 0 | S _ => 1 end) + retry_sleeps tbl fuel' script' CNone
          else 0
      end
  end.

(** RemoteResult <-> the model's result.  [error: None] with [value: None] is
    what the code returns when the loop body never ran (max_attempts = 0, which
    validate_fleet_options rejects); the model's placeholder for it is
    [RErr KNotConnected]. *)
Definition rr_of (r : result) : remote_result :=
  match r with RValue => RRValue | RErr k => RRError (Some k) end.

Lemma for_range_ext {S R} (f g : N -> S -> flow S R) idx :
  (forall i s, f i s = g i s) -> forall s, for_range f idx s = for_range g idx s.
Proof. intros H. induction idx as [|i idx IH]; intros s; cbn [for_range]; [reflexivity|]. rewrite H. destruct (g i s); auto. Qed.

(** The loop over [lo, lo+n) from any state is [retry_loop] with fuel [n]: one
    equation, by induction on [n] with [lo] and the state general.  [last_error]
    is reported only if the body never runs ([n = 0]); otherwise the result is
    the model's, whatever placeholder [l] its loop was started with. *)
Lemma for_retry tbl n : forall lo script c sl made last l,
  finish (for_range (iter_spec tbl (N.of_nat (lo + n))) (map N.of_nat (seq lo n)) (script, c, sl, made, last)) =
  let o := retry_loop tbl n script c made l in
  mkFleetOut (co_attempts o) (match n with O => RRError last | S _ => rr_of (co_result o) end)
             (co_cache o) (co_script o) (sl + retry_sleeps tbl n script c).
Proof.
  induction n as [|n IH]; intros lo script c sl made last l.
  - cbn [seq map for_range finish retry_loop retry_sleeps co_attempts co_cache co_script].
    rewrite N.add_0_r. reflexivity.
  - cbn [seq map for_range retry_loop retry_sleeps]. unfold iter_spec.
    destruct (next_b script) as [b script']. destruct (attempt b c) as [[|k] c1].
    + cbn [finish]. rewrite N.add_0_r. reflexivity.
    + destruct (retryable_with tbl k).
      * assert (Hs : (N.of_nat lo + 1 <? N.of_nat (lo + S n)) = match n with O => false | S _ => true end)
          by (destruct n; lia).
        rewrite Hs, Nat.add_succ_r. change (S (lo + n)) with (S lo + n)%nat.
        destruct n; cbv beta iota; rewrite (IH (S lo) _ _ _ _ _ (RErr k)); cbv zeta; [reflexivity|].
        rewrite N.add_assoc. reflexivity.
      * cbn [finish]. rewrite N.add_0_r. reflexivity.
Qed.

(** what "the rendered retry function is the model loop" means: attempts made,
    cached client, remaining script and sleeps agree for every [max]; the
    reported result agrees whenever the loop body runs at all ([1 <= max], which
    validate_fleet_options enforces); for [max = 0] the code reports neither a
    value nor an error, where the model has its placeholder [RErr KNotConnected] *)
Definition fleet_agrees (g : option (list bool -> N -> list behaviour -> cache -> fleet_out)) : Prop :=
  match g with
  | Some f => forall tbl max script c,
      let o := f tbl (N.of_nat max) script c in
      let m := retry_loop tbl max script c 0 (RErr KNotConnected) in
      fo_made o = co_attempts m /\ fo_cache o = co_cache m /\ fo_script o = co_script m /\
      fo_sleeps o = retry_sleeps tbl max script c /\
      ((1 <= max)%nat -> fo_result o = rr_of (co_result m)) /\
      (max = 0%nat -> fo_result o = RRError None)
  | None => True
  end.

(** the function all four renderings are; the initial state is the one the source sets up *)
Definition loop_model (tbl : list bool) (max : N) (script : list behaviour) (c : cache) : fleet_out :=
  finish (for_range (iter_spec tbl max) (range_N 0 max) (script, c, 0, 0, None)).

Lemma loop_model_agrees : fleet_agrees (Some loop_model).
Proof.
  intros tbl max script c o m.
  assert (E : o = mkFleetOut (co_attempts m) (match max with O => RRError None | S _ => rr_of (co_result m) end)
                             (co_cache m) (co_script m) (retry_sleeps tbl max script c)).
  { subst o m. unfold loop_model, range_N. change (N.to_nat 0) with 0%nat. rewrite Nat2N.id, Nat.sub_0_r.
    exact (for_retry tbl max 0 script c 0 0 None (RErr KNotConnected)). }
  clearbody o. subst o. cbn [fo_made fo_result fo_cache fo_script fo_sleeps].
  repeat split.
  - intros H. destruct H; reflexivity.
  - intros ->. reflexivity.
Qed.

Lemma fleet_agrees_of g : agrees4 g loop_model -> fleet_agrees g.
Proof.
  destruct g as [f|]; [|trivial]. intros H tbl max script c.
  rewrite H. apply loop_model_agrees.
Qed.

(** A rendered function is [loop_model]: by computation when the source has
    the shape of [iter_spec] and [finish]; otherwise because its loop body is
    [iter_spec] ([for_range_ext]) and the statement after its loop is [finish].
    The body is then compared by running both sides on the same environment
    step; what is left are the tests of the two sides ([split_ifs]: case
    analysis on the condition of every [if] in the goal), which must agree.
    The four functions as /repo has them take the first way. *)
Ltac split_ifs :=
  repeat match goal with |- context [if ?b then _ else _] => destruct b eqn:? end.
Ltac body_is_spec :=
  intros i [[[[script0 c0] sl0] made0] last0]; unfold iter_spec;
  destruct (next_b script0) as [b0 script1]; destruct (attempt b0 c0) as [[|k0] c1];
  split_ifs; first [reflexivity | discriminate | exfalso; lia].
Ltac rendered_is_loop_model :=
  apply fleet_agrees_of; gen_start;
  [ intros tbl max script c;
    first [ reflexivity
          | rewrite (for_range_ext _ (iter_spec tbl max)) by body_is_spec;
            unfold loop_model, finish;
            destruct (for_range _ _ _) as [[[[[? ?] ?] ?] ?]|?]; reflexivity ] .. ].

Lemma fleet_call_json_agrees : fleet_agrees gen_fleet_call_json.
Proof. rendered_is_loop_model. Qed.

Lemma fleet_call_message_agrees : fleet_agrees gen_fleet_call_message.
Proof. rendered_is_loop_model. Qed.

Lemma afleet_call_json_agrees : fleet_agrees gen_afleet_call_json.
Proof. rendered_is_loop_model. Qed.

Lemma afleet_call_message_agrees : fleet_agrees gen_afleet_call_message.
Proof. rendered_is_loop_model. Qed.

Lemma c19_source_translation :
  fleet_agrees gen_fleet_call_json /\ fleet_agrees gen_fleet_call_message /\
  fleet_agrees gen_afleet_call_json /\ fleet_agrees gen_afleet_call_message.
Proof.
  exact (conj fleet_call_json_agrees (conj fleet_call_message_agrees (conj afleet_call_json_agrees afleet_call_message_agrees))).
Qed.
