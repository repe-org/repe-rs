(** Agreement of the hand-written routing / dispatch model (Model/Route.v) with
    the Gallina renderings of route, route_request_view, dispatch_view and
    dispatch that bin/rs2v regenerates from /repo/src/server_request.rs on every
    run (Gen/RouteGen.v).  The code's decision chain, its notify handling, the
    error code of each rejection and the number of handler calls are the
    model's.  NOT tied: the *texts* of the error responses built from
    [format!] / string literals ([TOpaque]); the statements below hold for the
    model's choice of those texts.  A function that could not be translated is
    [None] and its lemma degrades to [True]. *)
From RepeV Require Import Model.Route Base.GenRoutePrelude Gen.RouteGen.
From RepeV Require Export Proofs.GenAgreeBase.
From Coq Require Import ZifyBool ZifyN.

(** [route], as the code returns it: the model's decision, the notify flag of
    the request, the path (the request's query) and the handler bound to its
    router; the message text dropped *)
Definition route_spec (rt : router) (r : request) : route_outcome :=
  match Route.route rt r with
  | RReject c _ => ROReject (is_notify r) c TOpaque
  | RDispatch m h => RODispatch (rt, (m, h)) (is_notify r) (q_query r)
  end.

(** [dispatch_view] ([View]) / [dispatch] ([Owned]): ONE handler call; a notify
    gets no response whatever the handler returned; otherwise the handler's
    message, or the error response with the code and text of its error *)
Definition dispatch_spec (m : mode) (bh : bound_handler) (r : request) (notify : bool) (e : heff)
  : dres (option gresp) * heff :=
  let '(c, e') := call_handler m bh r e in
  match c with
  | HPanicked => (DUnwind, e')
  | HReturned v =>
      (DRet (if notify then None
             else Some (match v with
                        | ROk p => p
                        | RErr x => GError m r (re_code x) (TText (re_text x))
                        end)), e')
  end.

(** a rendered response as a model response; [txt] stands for an opaque text *)
Definition text_of (txt : list byte) (t : gtext) : list byte :=
  match t with TOpaque => txt | TText s => s end.
Definition resp_of (txt : list byte) (g : gresp) : resp :=
  match g with
  | GHandler p => p
  | GError m r c t => err_resp m r c (text_of txt t)
  end.
Definition reject_text (rt : router) (r : request) : list byte :=
  match Route.route rt r with RReject _ msg => msg | RDispatch _ _ => [] end.

Definition route_request_view_spec (rt : router) (r : request) (e : heff) : dres (option gresp) * heff :=
  match Route.route rt r with
  | RReject c _ => (DRet (if is_notify r then None else Some (GError View r c TOpaque)), e)
  | RDispatch m h => dispatch_spec View (rt, (m, h)) r (is_notify r) e
  end.

(** [split_tests]: case analysis on every test the two sides make, each recorded
    as an equation: the condition of an [if], the scrutinee of a [match] on an
    option, a result, a query format, a handler's return, a dispatch result or a
    route outcome, the pair of a destructuring [let]; then the same for an [if] or
    an option [match] that such an equation has brought into the context.
    [done]: the two sides then agree by computation, or by the equations
    collected, or the tests taken contradict each other ([lia]) *)
Ltac split_tests :=
  repeat (match goal with
          | |- context [if ?b then _ else _] => destruct b eqn:?
          | |- context [match ?o with Some _ => _ | None => _ end] => destruct o eqn:?
          | |- context [match ?o with ROk _ => _ | RErr _ => _ end] => destruct o eqn:?
          | |- context [match ?o with QFRawBinary => _ | QFJsonPointer => _ end] => destruct o eqn:?
          | |- context [match ?o with HReturned _ => _ | HPanicked => _ end] => destruct o eqn:?
          | |- context [match ?o with DRet _ => _ | DUnwind => _ end] => destruct o eqn:?
          | |- context [match ?o with RODispatch _ _ _ => _ | ROReject _ _ _ => _ end] => destruct o eqn:?
          | |- context [let '(_, _) := ?p in _] => destruct p eqn:?
          | H : context [if ?b then _ else _] |- _ => destruct b eqn:?
          | H : context [match ?o with Some _ => _ | None => _ end] |- _ => destruct o eqn:?
          end; cbv beta iota zeta in *; try discriminate).
Lemma qf_try_from_agrees :
  match gen_qf_try_from with
  | Some f => forall x, f x = match qf_try_from x with Some q => ROk q | None => RErr x end
  | None => True
  end.
Proof.
  gen_start. all: intros x; unfold qf_try_from, QF_RAW_BINARY, QF_JSON_POINTER; cbv zeta.
  all: split_tests; done.
Qed.

(** the same classification with the test that [Route.route] makes put first: the case
    analysis of [route_agrees] then shares it with the model and meets no contradictory case *)
Lemma qf_try_from_pointer_first x :
  qf_try_from x = if x =? 1 then Some QFJsonPointer else if x =? 0 then Some QFRawBinary else None.
Proof. unfold qf_try_from, QF_RAW_BINARY, QF_JSON_POINTER. split_tests; done. Qed.

Lemma route_agrees :
  match gen_route with
  | Some f => forall utf8 rt r, utf8 (q_query r) = o_utf8 r -> f utf8 rt r (q_query r) = route_spec rt r
  | None => True
  end.
Proof.
  pose proof qf_try_from_agrees as Hq.
  gen_start. all: intros utf8 rt r Hu; callee Hq; rewrite ?Hq, ?qf_try_from_pointer_first.
  all: unfold route_spec, Route.route, from_utf8, router_get_bound, opt_unwrap_or, res_unwrap_or, is_notify,
         REPE_VERSION, EC_VERSION, EC_QUERY, EC_NOTFOUND; cbv zeta; rewrite ?Hu.
  all: destruct (router_get rt (q_query r)) as [[m h]|] eqn:Hg; cbn [option_map].
  all: split_tests; rewrite ?Hg in *; cbn [option_map] in *; done.
Qed.

(** dispatch_view and dispatch are the same text up to the mode *)
Ltac dispatch_is_spec m :=
  gen_start; intros bh r notify e; unfold dispatch_spec;
  destruct (call_handler m bh r e) as [c e1] eqn:Hc; repeat (split_tests; rewrite ?Hc in *); done.

Lemma dispatch_view_agrees : agrees4 gen_dispatch_view (dispatch_spec View).
Proof. dispatch_is_spec View. Qed.

Lemma dispatch_agrees : agrees4 gen_dispatch (dispatch_spec Owned).
Proof. dispatch_is_spec Owned. Qed.

Lemma route_request_view_agrees :
  match gen_route_request_view with
  | Some f => forall utf8 rt r e, utf8 (q_query r) = o_utf8 r -> f utf8 rt r e = route_request_view_spec rt r e
  | None => True
  end.
Proof.
  pose proof route_agrees as Hr. pose proof dispatch_view_agrees as Hd.
  gen_start. all: intros utf8 rt r e Hu; callee Hr; callee Hd.
  all: rewrite ?(Hr utf8 rt r Hu), ?Hd; unfold route_request_view_spec, route_spec.
  all: destruct (Route.route rt r) as [c msg|m h]; cbv beta iota.
  all: rewrite ?Hd; try (destruct (dispatch_spec View (rt, (m, h)) r (is_notify r) e) as [[o|] e1]; reflexivity).
  all: split_tests; done.
Qed.

Lemma call_handler_eq m rt mount h r e :
  call_handler m (rt, (mount, h)) r e =
  let '(res, n, k) := run_handler m rt mount h r in
  (match res with
   | HOk p => HReturned (ROk (GHandler p))
   | HErr c msg => HReturned (RErr (mkRError c msg))
   | HPanic => HPanicked
   end, mkEff (S (e_calls e)) (e_inv e ++ inv_of h n) (e_mw e + k)).
Proof. reflexivity. Qed.

(** the blocking / async TCP loops and the WebSocket inline arm: [route_request_view], then the
    writer's [finish]; a handler's panic unwinds the connection ("no frame" in the model) *)
Lemma inline_step_is_route_request_view finish rt r :
  let '(d, e) := route_request_view_spec rt r eff0 in
  inline_step finish rt r =
    mkStep (match d with
            | DRet o => option_map (fun g => finish r (resp_of (reject_text rt r) g)) o
            | DUnwind => None
            end) (e_inv e) (e_mw e)
  /\ e_calls e = match Route.route rt r with RDispatch _ _ => 1%nat | RReject _ _ => O end.
Proof.
  unfold route_request_view_spec, inline_step, reject_text, dispatch_spec.
  destruct (Route.route rt r) as [c msg|mount h].
  - cbn [e_inv e_mw e_calls eff0]. destruct (is_notify r); split; reflexivity.
  - rewrite call_handler_eq. destruct (run_handler View rt mount h r) as [[res n] k].
    destruct res as [p|c msg|]; cbn [e_inv e_mw e_calls eff0 app Nat.add];
      destruct (is_notify r); split; reflexivity.
Qed.

(** the WebSocket off-reader arm when a permit is free: [dispatch] on the owned request, the
    caller stamps the query and turns a caught panic into InternalError *)
Lemma offreader_dispatch_is_dispatch rt mount h r :
  o_sat r = false ->
  let '(d, e) := dispatch_spec Owned (rt, (mount, h)) r (is_notify r) eff0 in
  offreader_dispatch rt mount h r =
    mkStep (match d with
            | DRet o => option_map (fun g => finish_stamp r (resp_of [] g)) o
            | DUnwind => if is_notify r then None
                         else Some (finish_stamp r (err_like r EC_INTERNAL msg_panicked))
            end) (e_inv e) (e_mw e)
  /\ e_calls e = 1%nat.
Proof.
  intros Hs. unfold offreader_dispatch, dispatch_spec. rewrite Hs, call_handler_eq.
  destruct (run_handler Owned rt mount h r) as [[res n] k].
  destruct res as [p|c msg|]; cbn [e_inv e_mw e_calls eff0 app Nat.add];
    destruct (is_notify r); split; reflexivity.
Qed.
