(** Proofs about the client failure model (C06): an invariant of every run,
    its consequences (no hang, later calls fail, subscriber end-of-stream, no
    residue, late responses harmless), and the refinement of the scenario
    specification by the model. *)
From RepeV Require Import Model.ClientFail.

Lemma cget_cset l c v c' : cget (cset l c v) c' = if c' =? c then v else cget l c'.
Proof.
  induction l as [|[c0 v0] l IH]; cbn [cset cget].
  - now rewrite N.eqb_sym.
  - destruct (c0 =? c) eqn:E; cbn [cget].
    + apply N.eqb_eq in E; subst c0. rewrite (N.eqb_sym c c'). now destruct (c' =? c).
    + destruct (c0 =? c') eqn:E2; [|exact IH]. apply N.eqb_eq in E2; subst c0. now rewrite E.
Qed.

Lemma cget_cset_same l c v : cget (cset l c v) c = v.
Proof. now rewrite cget_cset, N.eqb_refl. Qed.

Lemma cget_cset_other l c v c' : c' <> c -> cget (cset l c v) c' = cget l c'.
Proof. intros H. rewrite cget_cset. apply N.eqb_neq in H. now rewrite H. Qed.

Lemma in_pdel l id i c : In (i, c) (pdel l id) <-> In (i, c) l /\ i <> id.
Proof.
  induction l as [|[i0 c0] l IH]; cbn [pdel In]; [split; [intros [] | intros [[] _]]|].
  destruct (N.eqb_spec i0 id) as [->|E]; cbn [In]; rewrite IH.
  - split; [intros [H Hne]; auto | intros [[H|H] Hne]; [congruence | auto]].
  - split; [intros [H|[H Hne]]; [split; [auto | congruence] | auto] | intros [[H|H] Hne]; auto].
Qed.

Lemma nodup_pdel l id : NoDup (map fst l) -> NoDup (map fst (pdel l id)).
Proof.
  induction l as [|[i0 c0] l IH]; cbn [pdel map fst]; intros H; [constructor|].
  inversion H as [|? ? Hn Hd]; subst.
  destruct (i0 =? id); [now apply IH|].
  cbn [map fst]. constructor; [|now apply IH].
  intros Hin. apply Hn. apply in_map_iff in Hin. destruct Hin as [[i c] [Hf Hi]]. cbn in Hf; subst i.
  apply in_pdel in Hi. apply in_map_iff. exists (i0, c). tauto.
Qed.

Lemma pfind_in l id c : pfind l id = Some c -> In (id, c) l.
Proof.
  induction l as [|[i0 c0] l IH]; cbn [pfind In]; [discriminate|].
  destruct (i0 =? id) eqn:E; intros H.
  - apply N.eqb_eq in E. inversion H; subst. now left.
  - right; now apply IH.
Qed.

Lemma pfind_none l id : pfind l id = None <-> forall c, ~ In (id, c) l.
Proof.
  induction l as [|[i0 c0] l IH]; cbn [pfind In]; [split; [intros _ c []| reflexivity]|].
  destruct (i0 =? id) eqn:E.
  - apply N.eqb_eq in E; subst. split; [discriminate|]. intros H. exfalso. apply (H c0). now left.
  - apply N.eqb_neq in E. rewrite IH. split.
    + intros H c [H1|H1]; [inversion H1; congruence | now apply (H c)].
    + intros H c H1. apply (H c). now right.
Qed.

Lemma in_pfind l id c : NoDup (map fst l) -> In (id, c) l -> pfind l id = Some c.
Proof.
  induction l as [|[i0 c0] l IH]; cbn [pfind In map fst]; intros Hd Hin; [contradiction|].
  inversion Hd as [|? ? Hn Hd']; subst.
  destruct Hin as [H|H].
  - inversion H; subst. now rewrite N.eqb_refl.
  - destruct (i0 =? id) eqn:E; [|now apply IH].
    apply N.eqb_eq in E; subst. exfalso. apply Hn. apply in_map_iff. now exists (id, c).
Qed.

Lemma pdel_none l id : (forall c, ~ In (id, c) l) -> pdel l id = l.
Proof.
  induction l as [|[i0 c0] l IH]; cbn [pdel]; intros H; [reflexivity|].
  destruct (i0 =? id) eqn:E.
  - apply N.eqb_eq in E; subst. exfalso. apply (H c0). now left.
  - f_equal. apply IH. intros c Hc. apply (H c). now right.
Qed.

Lemma id_of_deliver v r : id_of (deliver_st v r) = id_of v.
Proof. destruct v as [|id [x|]|id [x|]|id|id|id x]; reflexivity. Qed.

Lemma deliver_none v r : deliver_st v r = CNone <-> v = CNone.
Proof. destruct v as [|id [x|]|id [x|]|id|id|id x]; cbn; split; congruence. Qed.

Lemma deliver_idem v r : deliver_st (deliver_st v r) r = deliver_st v r.
Proof. destruct v as [|id [x|]|id [x|]|id|id|id x]; reflexivity. Qed.

Definition needs_entry (v : cst) : Prop :=
  match v with CReg _ None | CStall _ None | CWait _ => True | _ => False end.

Definition open_st (v : cst) : Prop :=
  match v with CReg _ None | CStall _ None | CWait _ | CFired _ => True | _ => False end.

Lemma open_used v : open_st v -> v <> CNone.
Proof. now intros H ->. Qed.

Lemma needs_open v : needs_entry v -> open_st v.
Proof. destruct v as [|id [x|]|id [x|]|id|id|id x]; cbn; tauto. Qed.

Lemma deliver_not_needs v r : ~ needs_entry (deliver_st v r) \/ (deliver_st v r = v /\ ~ needs_entry v).
Proof. destruct v as [|id [x|]|id [x|]|id|id|id x]; cbn; tauto. Qed.

Lemma deliver_needs v r : needs_entry (deliver_st v r) -> False.
Proof. destruct v as [|id [x|]|id [x|]|id|id|id x]; cbn; tauto. Qed.

Definition has_caller (p : list (N * N)) (c : N) : bool := existsb (fun e => snd e =? c) p.

Lemma has_caller_in p c : has_caller p c = true <-> exists id, In (id, c) p.
Proof.
  unfold has_caller. rewrite existsb_exists. split.
  - intros [[i c'] [Hi He]]. cbn in He. apply N.eqb_eq in He; subst. now exists i.
  - intros [id Hi]. exists (id, c). split; [assumption | cbn; apply N.eqb_refl].
Qed.

Lemma drain_get p : forall cs c,
  cget (drain_cs p cs) c = if has_caller p c then deliver_st (cget cs c) RConn else cget cs c.
Proof.
  unfold drain_cs, has_caller.
  induction p as [|[i c0] p IH]; intros cs c; cbn [fold_left existsb snd]; [reflexivity|].
  rewrite IH. unfold cdeliver. rewrite cget_cset. rewrite (N.eqb_sym c c0).
  destruct (c0 =? c) eqn:E; cbn [orb].
  - apply N.eqb_eq in E; subst c0.
    destruct (existsb (fun e : N * N => snd e =? c) p); [apply deliver_idem | reflexivity].
  - reflexivity.
Qed.

Definition past_fail (r : rphase) : bool :=
  match r with ROwnShut | RShutDone | RDrained | RDead => true | _ => false end.
Definition before_subend (r : rphase) : bool :=
  match r with RAlive | RHold _ | RErr => true | _ => false end.

(** The pending map and the callers tell the same story: an entry carries the
    id of its caller, who has not returned ([i_entry]); ids are those handed
    out so far and no two callers share one ([i_ids], [i_uniq]).  The three
    fields that carry the property:
    - [i_open]: a caller that still expects a value through its channel is
      owned, by its entry in the map or by the reader's hand ([i_hand]: never
      both), so that the delivery or the drain reaches it;
    - [i_live]: once the loop has drained, or a guard has told it to stop,
      nobody waits any more, except for a response already in hand;
    - [i_shut]: from the moment the loop has made writes fail, or a guard has
      fired, the socket is marked shut.  This is what keeps [i_live] true of
      later calls: their write fails instead of leaving them waiting. *)
Record inv (s : st) : Prop := mkInv {
  i_nodup : NoDup (map fst (s_pending s));
  i_entry : forall id c, In (id, c) (s_pending s) -> id_of (stof s c) = id /\ open_st (stof s c);
  i_ids : forall c, stof s c <> CNone -> 1 <= id_of (stof s c) < s_next s;
  i_uniq : forall c1 c2, stof s c1 <> CNone -> id_of (stof s c1) = id_of (stof s c2) -> c1 = c2;
  i_hand : forall c, s_rd s = RHold (Some c) -> stof s c <> CNone /\ forall id, ~ In (id, c) (s_pending s);
  i_open : forall c, needs_entry (stof s c) -> s_rd s = RHold (Some c) \/ In (id_of (stof s c), c) (s_pending s);
  i_live : forall c id, stof s c = CWait id -> dead s = true -> s_rd s = RHold (Some c);
  i_shut : past_fail (s_rd s) = true \/ s_gstop s = true -> s_shut s = true;
  i_lock : forall c, s_lock s = Some c <-> exists id mb, stof s c = CStall id mb;
  i_sub : s_kind s = KWs -> s_sub s = SSub -> before_subend (s_rd s) = true;
  i_next : 1 <= s_next s
}.

(** reduce the projections of a model state, a scenario state or a
    specification state given as a record or by field updates *)
Ltac fields := cbn [set_next set_pc set_rd set_shut set_gstop set_lock set_sub set_nrecv drain_all
  s_kind s_shut s_gstop s_rd s_pending s_cs s_next s_lock s_sub s_nrecv
  x_s x_faulted x_subq x_resid sp_phase sp_cs p_phase p_cs p_stalled p_subq p_nn p_nprobe].

Lemma inv_init k : inv (init k).
Proof.
  constructor; unfold stof; cbn.
  - constructor.
  - intros id c [].
  - intros c H; congruence.
  - intros c1 c2 H; congruence.
  - intros c H; discriminate.
  - intros c [].
  - intros c id H; discriminate.
  - intros [H|H]; discriminate.
  - intros c; split; [discriminate | intros [id [mb H]]; discriminate].
  - intros _ H; discriminate.
  - lia.
Qed.

Lemma dead_shut s : inv s -> dead s = true -> s_shut s = true.
Proof.
  intros I H. apply (i_shut s I). unfold dead in H.
  destruct (s_rd s); cbn; auto.
Qed.

Lemma used_id v : 1 <= id_of v -> v <> CNone.
Proof. intros H ->. exact (H eq_refl). Qed.

Lemma id_other s c c' : inv s -> c' <> c -> stof s c <> CNone -> id_of (stof s c') <> id_of (stof s c).
Proof. intros I Hne Hc Heq. apply Hne. symmetry. apply (i_uniq s I c c' Hc). now symmetry. Qed.

Definition stalls (v : cst) : bool := match v with CStall _ _ => true | _ => false end.

Lemma stall_iff v : (exists id mb, v = CStall id mb) <-> stalls v = true.
Proof.
  destruct v; cbn; (split; [intros (i & m & H); discriminate || reflexivity | discriminate || eauto]).
Qed.

Lemma ids_kept s cs' n' :
  inv s -> s_next s <= n' ->
  (forall c, id_of (cget cs' c) = id_of (stof s c) /\ (cget cs' c = CNone <-> stof s c = CNone)) ->
  (forall c, cget cs' c <> CNone -> 1 <= id_of (cget cs' c) < n') /\
  (forall c1 c2, cget cs' c1 <> CNone -> id_of (cget cs' c1) = id_of (cget cs' c2) -> c1 = c2).
Proof.
  intros I Hn H. split.
  - intros c Hc. destruct (H c) as [-> Hi]. pose proof (i_ids s I c) as Hb. rewrite <- Hi in Hb. specialize (Hb Hc). lia.
  - intros c1 c2 H1. destruct (H c1) as [-> Hi], (H c2) as [-> _]. apply (i_uniq s I). now rewrite <- Hi.
Qed.

(** how a move of caller [c] from [v] to [v'] may change the writer lock *)
Definition lock_moves (s : st) (c : N) (v v' : cst) (l' : option N) : Prop :=
  stalls v' = stalls v /\ l' = s_lock s \/
  stalls v' = false /\ stalls v = true /\ l' = None \/
  stalls v' = true /\ s_lock s = None /\ l' = Some c.

Lemma lock_move s c v v' l' :
  inv s -> stof s c = v -> lock_moves s c v v' l' ->
  forall c', l' = Some c' <-> exists id mb, cget (cset (s_cs s) c v') c' = CStall id mb.
Proof.
  intros I Ev Hl c'. rewrite stall_iff.
  pose proof (i_lock s I c) as Lc. pose proof (i_lock s I c') as Lc'. rewrite stall_iff in Lc, Lc'.
  rewrite Ev in Lc. unfold stof in Lc'.
  rewrite cget_cset. destruct (N.eqb_spec c' c) as [->|Hc];
    destruct Hl as [[H1 ->]|[(H1&H2&->)|(H1&H2&->)]]; rewrite ?H1; try assumption; try (split; congruence).
  - split; [discriminate|]. intros H. apply Lc' in H. apply Lc in H2. congruence.
  - split; [congruence|]. intros H. apply Lc' in H. congruence.
Qed.

(** only caller [c] moves, to [v'], and [P'] is the pending map afterwards.
    What has to be said of [P'] concerns the entries of [c] alone (they fit
    [v'], one is there if [v'] needs one, none while the reader holds [c]'s
    response): the entries of the others are as before. *)
Lemma inv_one s c v' P' n' l' :
  inv s ->
  NoDup (map fst P') ->
  (forall id c', c' <> c -> (In (id, c') P' <-> In (id, c') (s_pending s))) ->
  (forall id, In (id, c) P' -> id_of v' = id /\ open_st v') ->
  (needs_entry v' -> s_rd s = RHold (Some c) \/ In (id_of v', c) P') ->
  (s_rd s = RHold (Some c) -> v' <> CNone /\ forall id, ~ In (id, c) P') ->
  s_next s <= n' ->
  (v' <> CNone -> 1 <= id_of v' < n' /\
                  forall c', c' <> c -> stof s c' <> CNone -> id_of (stof s c') <> id_of v') ->
  (forall i, v' = CWait i -> s_shut s = false) ->
  lock_moves s c (stof s c) v' l' ->
  inv (mkSt (s_kind s) (s_shut s) (s_gstop s) (s_rd s) P' (cset (s_cs s) c v') n' l' (s_sub s) (s_nrecv s)).
Proof.
  intros I Hd Ho Hc Hn Hh Hle Hid Hw Hl.
  assert (St : forall c', c' <> c -> cget (cset (s_cs s) c v') c' = stof s c')
    by (intros; now apply cget_cset_other).
  pose proof (cget_cset_same (s_cs s) c v') as Sc.
  constructor; unfold stof, dead; fields.
  - exact Hd.
  - intros id c' Hin. destruct (N.eq_dec c' c) as [->|Hne].
    + rewrite Sc. now apply Hc.
    + rewrite (St c' Hne). now apply (i_entry s I), Ho.
  - intros c'. destruct (N.eq_dec c' c) as [->|Hne].
    + rewrite Sc. intros H. apply (Hid H).
    + rewrite (St c' Hne). intros H. destruct (i_ids s I c' H) as [A B].
      split; [exact A | exact (N.lt_le_trans _ _ _ B Hle)].
  - intros c1 c2.
    destruct (N.eq_dec c1 c) as [->|H1], (N.eq_dec c2 c) as [->|H2]; rewrite ?Sc, ?(St _ H1), ?(St _ H2).
    + reflexivity.
    + (* an unused caller has id 0, which nobody else has *)
      intros Hv E. destruct (Hid Hv) as [Hb Hu].
      destruct (Hu c2 H2); [apply used_id; rewrite <- E; apply Hb | now symmetry].
    + intros H E. pose proof (i_ids s I c1 H) as Hb.
      assert (Hv : v' <> CNone) by (apply used_id; rewrite <- E; apply Hb).
      now destruct (proj2 (Hid Hv) c1 H1 H).
    + apply (i_uniq s I).
  - intros c' Hr. destruct (N.eq_dec c' c) as [->|Hne].
    + rewrite Sc. exact (Hh Hr).
    + rewrite (St c' Hne). destruct (i_hand s I c' Hr) as [Ha Hb]. split; [exact Ha|].
      intros id Hin. now apply (Hb id), Ho.
  - intros c'. destruct (N.eq_dec c' c) as [->|Hne].
    + rewrite Sc. exact Hn.
    + rewrite (St c' Hne). intros H. destruct (i_open s I c' H) as [H0|H0]; [now left | right; now apply Ho].
  - intros c' i. destruct (N.eq_dec c' c) as [->|Hne].
    + rewrite Sc. intros E D. pose proof (dead_shut s I D). pose proof (Hw i E). congruence.
    + rewrite (St c' Hne). apply (i_live s I).
  - apply (i_shut s I).
  - now apply (lock_move s c (stof s c)).
  - apply (i_sub s I).
  - exact (N.le_trans _ _ _ (i_next s I) Hle).
Qed.

Lemma ids_same s c :
  inv s -> stof s c <> CNone ->
  1 <= id_of (stof s c) < s_next s /\
  forall c', c' <> c -> stof s c' <> CNone -> id_of (stof s c') <> id_of (stof s c).
Proof.
  intros I Hv. split; [apply (i_ids s I c Hv)|].
  intros c' Hne _. now apply id_other.
Qed.

(** [c] moves from [v] to [v'] under the same id and keeps its entry, if it has one *)
Lemma inv_keep s c v v' l' :
  inv s -> stof s c = v -> v <> CNone -> v' <> CNone -> id_of v' = id_of v ->
  (open_st v -> open_st v' \/ forall id, ~ In (id, c) (s_pending s)) ->
  (needs_entry v' -> needs_entry v) ->
  (forall i, v' = CWait i -> s_shut s = false) ->
  lock_moves s c v v' l' ->
  inv (mkSt (s_kind s) (s_shut s) (s_gstop s) (s_rd s) (s_pending s)
            (cset (s_cs s) c v') (s_next s) l' (s_sub s) (s_nrecv s)).
Proof.
  intros I Ev Hv Hv' Hid Hop Hne Hw Hl. subst v.
  apply inv_one; try assumption.
  - apply (i_nodup s I).
  - reflexivity.
  - intros id Hin. destruct (i_entry s I id c Hin) as [E O]. split; [congruence|].
    destruct (Hop O) as [H|H]; [exact H | now destruct (H id)].
  - intros H. rewrite Hid. apply (i_open s I c), Hne, H.
  - intros Hr. split; [assumption | apply (i_hand s I c Hr)].
  - reflexivity.
  - intros _. rewrite Hid. now apply ids_same.
Qed.

(** [c] returns with result [r]: its entry, if still there, is removed *)
Lemma inv_close s c v r l' :
  inv s -> stof s c = v -> v <> CNone -> lock_moves s c v (CDone (id_of v) r) l' ->
  inv (mkSt (s_kind s) (s_shut s) (s_gstop s) (s_rd s) (pdel (s_pending s) (id_of v))
            (cset (s_cs s) c (CDone (id_of v) r)) (s_next s) l' (s_sub s) (s_nrecv s)).
Proof.
  intros I Ev Hv Hl. subst v.
  apply inv_one; try assumption; try discriminate.
  - apply nodup_pdel, (i_nodup s I).
  - intros id c' Hne. rewrite in_pdel. split; [tauto|]. intros Hin. split; [exact Hin|].
    destruct (i_entry s I id c' Hin) as [<- _]. exact (id_other s c c' I Hne Hv).
  - intros id Hin. apply in_pdel in Hin. destruct Hin as [Hin Hne].
    now destruct Hne, (i_entry s I id c Hin).
  - intros [].
  - intros Hr. split; [discriminate|]. intros id Hin. apply in_pdel in Hin.
    now apply (proj2 (i_hand s I c Hr) id).
  - reflexivity.
  - intros _. now apply ids_same.
Qed.

Lemma inv_written s c v id mb l' :
  inv s -> stof s c = v -> v = CReg id mb \/ v = CStall id mb -> s_shut s = false ->
  lock_moves s c v (match mb with Some r => CDone id r | None => CWait id end) l' ->
  inv (mkSt (s_kind s) (s_shut s) (s_gstop s) (s_rd s) (s_pending s)
            (cset (s_cs s) c (match mb with Some r => CDone id r | None => CWait id end))
            (s_next s) l' (s_sub s) (s_nrecv s)).
Proof.
  intros I Ev Hv Sh Hl.
  (* the caller may now be waiting: writes had not been made to fail, so the loop is not dead *)
  apply (inv_keep s c v _ l' I Ev); try assumption; [.. | intros i _; exact Sh];
    destruct Hv as [-> | ->]; destruct mb; cbn; first [discriminate | tauto].
Qed.

Lemma inv_set_shut s : inv s -> inv (set_shut s true).
Proof. intros I. destruct I. constructor; cbn; auto. Qed.

Lemma inv_set_nrecv s n : inv s -> inv (set_nrecv s n).
Proof. intros I. destruct I. constructor; cbn; auto. Qed.

Lemma inv_set_sub s u :
  inv s -> (s_kind s = KWs -> u = SSub -> before_subend (s_rd s) = true) -> inv (set_sub s u).
Proof. intros I H. destruct I. constructor; cbn; auto. Qed.

Lemma inv_set_gstop s : inv s -> s_shut s = true -> dead s = true -> inv (set_gstop s true).
Proof.
  intros I Hs Hd. pose proof (i_live s I) as Live. destruct I. constructor; cbn; auto.
  intros c id H _. exact (Live c id H Hd).
Qed.

(** the response loop changes phase; the new phase holds no response, and
    the response held before, if any, has been handed over *)
Lemma inv_set_rd s r :
  inv s -> (forall c, r <> RHold (Some c)) ->
  (forall c, s_rd s = RHold (Some c) -> ~ needs_entry (stof s c)) ->
  dead (set_rd s r) = dead s ->
  (past_fail r = true -> s_shut s = true) ->
  (s_kind s = KWs -> s_sub s = SSub -> before_subend r = true) ->
  inv (set_rd s r).
Proof.
  intros I H1 H0 Hd Hs Hsub.
  pose proof (i_open s I) as Open. pose proof (i_live s I) as Live. pose proof (i_shut s I) as Shut.
  destruct I. constructor; unfold stof in *; fields; auto.
  - intros c H. now destruct (H1 c).
  - intros c Hn. destruct (Open c Hn) as [H|H]; [now destruct (H0 c H) | now right].
  - intros c id H Hdd. rewrite Hd in Hdd. destruct (H0 c (Live c id H Hdd)). now rewrite H.
  - intros [H|H]; [now apply Hs | apply Shut; now right].
Qed.

Definition drained (r : rphase) : bool := match r with RDrained | RDead => true | _ => false end.
Definition empty_hand (r : rphase) : bool := match r with RHold (Some _) => false | _ => true end.
Definition sub_live (s : st) : bool := match s_sub s with SSub => is_ws (s_kind s) | _ => false end.

(** the response loop goes from phase [r0] to phase [r], neither holding a
    response.  With [g] the guard's stop flag, [sh] the shut flag and [ls]
    saying that a WebSocket subscriber is still open, the move is sound when
    it neither ends nor revives the loop (unless a guard has ended it
    already), when writes fail already if [r] claims so, and when the
    subscriber has been ended if [r] claims so. *)
Definition phase_ok (r0 r : rphase) (g sh ls : bool) : bool :=
  empty_hand r0 && empty_hand r
  && (Bool.eqb (drained r) (drained r0) || g)
  && (negb (past_fail r) || past_fail r0 || sh || g)
  && (before_subend r || negb (before_subend r0) || negb ls).

Lemma dead_drained s : dead s = drained (s_rd s) || s_gstop s.
Proof. unfold dead. now destruct (s_rd s). Qed.

Lemma inv_phase s r0 r :
  inv s -> s_rd s = r0 -> phase_ok r0 r (s_gstop s) (s_shut s) (sub_live s) = true -> inv (set_rd s r).
Proof.
  intros I R H. subst r0. unfold phase_ok in H. rewrite !andb_true_iff in H.
  destruct H as ((((Ha&Hb)&Hc)&Hd)&He).
  apply inv_set_rd; try assumption.
  - intros c ->. discriminate.
  - intros c E. rewrite E in Ha. discriminate.
  - rewrite !dead_drained. cbn [set_rd s_rd s_gstop].
    destruct (s_gstop s); [now rewrite !orb_true_r|]. rewrite orb_false_r in Hc. apply eqb_prop in Hc. now rewrite Hc.
  - intros P. rewrite P in Hd. cbn [negb orb] in Hd. rewrite <- orb_assoc in Hd.
    apply orb_prop in Hd. destruct Hd as [Hd|Hd]; [apply (i_shut s I); now left|].
    apply orb_prop in Hd. destruct Hd as [Hd|Hd]; [exact Hd | apply (i_shut s I); now right].
  - intros K U. unfold sub_live in He. rewrite K, U in He. cbn [is_ws negb] in He. rewrite orb_false_r in He.
    apply orb_prop in He. destruct He as [He|He]; [exact He|].
    rewrite (i_sub s I K U) in He. discriminate.
Qed.

Lemma stof_drain s c :
  stof (drain_all s) c = if has_caller (s_pending s) c then deliver_st (stof s c) RConn else stof s c.
Proof. unfold stof, drain_all. cbn [set_pc s_cs]. apply drain_get. Qed.

Lemma drain_needs s c : inv s -> needs_entry (stof (drain_all s) c) -> s_rd s = RHold (Some c).
Proof.
  intros I. rewrite stof_drain. destruct (has_caller (s_pending s) c) eqn:E.
  - intros H. now apply deliver_needs in H.
  - intros H. destruct (i_open s I c H) as [H1|H1]; [assumption|].
    assert (has_caller (s_pending s) c = true) by (apply has_caller_in; eauto). congruence.
Qed.

Lemma stall_deliver v r : stalls (deliver_st v r) = stalls v.
Proof. destruct v as [|id [x|]|id [x|]|id|id|id x]; reflexivity. Qed.

Lemma inv_drain s r g :
  inv s ->
  (forall c, r = RHold (Some c) <-> s_rd s = RHold (Some c)) ->
  (s_kind s = KWs -> s_sub s = SSub -> before_subend r = true) ->
  inv (mkSt (s_kind s) true g r [] (drain_cs (s_pending s) (s_cs s)) (s_next s) (s_lock s) (s_sub s) (s_nrecv s)).
Proof.
  intros I Hr Hsub.
  assert (E : forall c, cget (drain_cs (s_pending s) (s_cs s)) c = stof (drain_all s) c) by reflexivity.
  assert (Hk : forall c, id_of (cget (drain_cs (s_pending s) (s_cs s)) c) = id_of (stof s c) /\
                         (cget (drain_cs (s_pending s) (s_cs s)) c = CNone <-> stof s c = CNone)).
  { intros c. rewrite E, stof_drain. destruct (has_caller (s_pending s) c); [|tauto].
    split; [apply id_of_deliver | apply deliver_none]. }
  destruct (ids_kept s _ _ I (N.le_refl _) Hk) as [Hids Huniq].
  constructor; unfold stof, dead; fields; try assumption.
  - constructor.
  - intros id c [].
  - intros c H. split; [|intros id []]. rewrite (proj2 (Hk c)). apply (i_hand s I c). now apply Hr.
  - intros c. rewrite E. intros H. left. apply Hr. now apply drain_needs.
  - intros c id. rewrite E. intros H _. apply Hr. apply drain_needs; [assumption|]. now rewrite H.
  - reflexivity.
  - intros c. rewrite (i_lock s I c), !stall_iff, E, stof_drain.
    destruct (has_caller (s_pending s) c); [now rewrite stall_deliver | reflexivity].
  - apply (i_next s I).
Qed.

Lemma inv_drain_rd s r :
  inv s -> past_fail (s_rd s) = true -> (forall o, r <> RHold o) -> before_subend r = false ->
  inv (set_rd (drain_all s) r).
Proof.
  intros I Hp Hr Hb.
  assert (Hsh : s_shut s = true) by (apply (i_shut s I); now left).
  unfold set_rd, drain_all, set_pc. fields.
  rewrite Hsh. apply inv_drain; [assumption | |].
  - intros c. split; intros H; [now destruct (Hr (Some c)) | rewrite H in Hp; discriminate].
  - intros K U. pose proof (i_sub s I K U) as B. destruct (s_rd s); discriminate.
Qed.

Lemma entry_ids s id c : inv s -> In (id, c) (s_pending s) -> 1 <= id < s_next s.
Proof. intros I Hin. destruct (i_entry s I id c Hin) as [<- H]. exact (i_ids s I c (open_used _ H)). Qed.

Lemma nodup_snoc {A} (l : list A) x : NoDup l -> ~ In x l -> NoDup (l ++ [x]).
Proof.
  intros Hd Hn. apply NoDup_rev in Hd. rewrite <- (rev_involutive (l ++ [x])), rev_unit.
  apply NoDup_rev. constructor; [now rewrite <- in_rev | assumption].
Qed.

Lemma inv_register s c :
  inv s -> stof s c = CNone ->
  inv (set_next (set_pc s (s_pending s ++ [(s_next s, c)]) (cset (s_cs s) c (CReg (s_next s) None))) (s_next s + 1)).
Proof.
  intros I Hc. pose proof (i_next s I) as Hn.
  apply (inv_one s c (CReg (s_next s) None) (s_pending s ++ [(s_next s, c)]) (s_next s + 1) (s_lock s) I).
  - (* the new id is above every id in the map *)
    rewrite map_app. apply nodup_snoc; [apply (i_nodup s I)|]. cbn [map fst].
    intros Hin. apply in_map_iff in Hin. destruct Hin as [[i c'] [Hf Hi]]. cbn in Hf; subst i.
    exact (N.lt_irrefl _ (proj2 (entry_ids s _ _ I Hi))).
  - intros id c' Hne. rewrite in_app_iff. cbn [In]. split; [|tauto]. intros [H|[H|[]]]; [exact H | congruence].
  - intros id Hin. apply in_app_or in Hin. destruct Hin as [Hin|[Hin|[]]]; [|inversion Hin; now split].
    destruct (i_entry s I id c Hin) as [_ H]. rewrite Hc in H. destruct H.
  - intros _. right. apply in_or_app. right. now left.
  - intros Hr. destruct (i_hand s I c Hr) as [H _]. now destruct H.
  - lia.
  - intros _. cbn [id_of]. split; [lia|]. intros c' _ H. pose proof (i_ids s I c' H). lia.
  - discriminate.
  - left. rewrite Hc. now split.
Qed.

(** the one step proved field by field: the pending map and the reader's hand change
    together, and the state in between (entry removed, hand still empty) breaks [i_open] *)
Lemma inv_take s id c :
  inv s -> s_rd s = RAlive -> pfind (s_pending s) id = Some c ->
  inv (set_rd (set_pc s (pdel (s_pending s) id) (s_cs s)) (RHold (Some c))).
Proof.
  intros I Hr Hf. apply pfind_in in Hf.
  destruct (i_entry s I id c Hf) as [Hid Hop].
  pose proof (open_used _ Hop) as Hc.
  constructor; unfold stof in *; fields.
  - apply nodup_pdel, (i_nodup s I).
  - intros id' c' Hin. apply in_pdel in Hin. now apply (i_entry s I).
  - apply (i_ids s I).
  - apply (i_uniq s I).
  - intros c' H. inversion H; subst c'. split; [assumption|].
    intros id' Hin. apply in_pdel in Hin. destruct Hin as [Hin Hne].
    destruct (i_entry s I id' c Hin) as [H1 _]. unfold stof in H1. congruence.
  - intros c' Hn. destruct (N.eq_dec c' c) as [->|Hne]; [now left|].
    right. destruct (i_open s I c' Hn) as [H|H]; [rewrite Hr in H; discriminate|].
    apply in_pdel. split; [assumption|]. rewrite <- Hid. exact (id_other s c c' I Hne Hc).
  - intros c' id' H Hd.
    assert (Hd' : dead s = true) by (unfold dead in *; rewrite Hr; exact Hd).
    pose proof (i_live s I c' id' H Hd') as H0. rewrite Hr in H0. discriminate.
  - intros [H|H]; [discriminate | apply (i_shut s I); now right].
  - apply (i_lock s I).
  - intros _ _. reflexivity.
  - apply (i_next s I).
Qed.

Lemma inv_deliver s c :
  inv s -> s_rd s = RHold (Some c) ->
  inv (set_rd (set_pc s (s_pending s) (cdeliver (s_cs s) c ROk)) RAlive).
Proof.
  intros I Hr. destruct (i_hand s I c Hr) as [Hc Hno].
  assert (I1 : inv (set_pc s (s_pending s) (cdeliver (s_cs s) c ROk))).
  { apply (inv_keep s c (stof s c) (deliver_st (stof s c) ROk) (s_lock s) I eq_refl Hc).
    - now rewrite deliver_none.
    - apply id_of_deliver.
    - auto.
    - intros H. now apply deliver_needs in H.
    - intros i H. destruct (deliver_needs (stof s c) ROk). now rewrite H.
    - left. split; [apply stall_deliver | reflexivity]. }
  apply (inv_set_rd _ _ I1); [discriminate | | | discriminate | reflexivity].
  - cbn [set_pc s_rd]. intros c' H. rewrite Hr in H. inversion H; subst c'.
    unfold stof, cdeliver. cbn [set_pc s_cs]. rewrite cget_cset_same. exact (deliver_needs _ _).
  - unfold dead. cbn. now rewrite Hr.
Qed.

(** what a failed write does beyond closing the caller *)
Definition after_fail (s1 : st) (g : bool) : st :=
  match s_kind s1 with
  | KTcp => set_shut s1 true
  | KAsync => if g then set_gstop (set_shut (drain_all s1) true) true else s1
  | KWs => s1
  end.

Lemma fail_write_eq s c id g : fail_write s c id g = after_fail (own_fail s c id) g.
Proof. reflexivity. Qed.

Lemma inv_after_fail s1 g : inv s1 -> inv (after_fail s1 g).
Proof.
  intros I. unfold after_fail. destruct (s_kind s1) eqn:K.
  - now apply inv_set_shut.
  - destruct g; [|assumption]. exact (inv_drain s1 (s_rd s1) true I (fun c => iff_refl _) (i_sub s1 I)).
  - assumption.
Qed.

Lemma after_fail_frame s1 g :
  let s' := after_fail s1 g in
  s_kind s' = s_kind s1 /\ s_rd s' = s_rd s1 /\ s_lock s' = s_lock s1 /\ s_sub s' = s_sub s1 /\
  s_nrecv s' = s_nrecv s1 /\ (s_shut s1 = true -> s_shut s' = true) /\
  forall c, stof s' c = stof s1 c \/ stof s' c = deliver_st (stof s1 c) RConn.
Proof.
  unfold after_fail. destruct (s_kind s1) eqn:K; [|destruct g|]; cbn zeta; repeat apply conj; auto.
  intros c. change (stof (set_gstop (set_shut (drain_all s1) true) true) c) with (stof (drain_all s1) c).
  rewrite stof_drain. destruct (has_caller (s_pending s1) c); auto.
Qed.

Lemma stof_not_none_of s c id mb : stof s c = CReg id mb \/ stof s c = CStall id mb \/ stof s c = CWait id \/ stof s c = CFired id ->
  stof s c <> CNone /\ id_of (stof s c) = id.
Proof. intros [H|[H|[H|H]]]; rewrite H; split; cbn; congruence. Qed.

Lemma inv_do_step s e : inv s -> inv (do_step s e).
Proof.
  intros I.
  destruct e as [c|c|c|c|c|c|c|c|c| |id| | | | | | | | ]; cbn [do_step].
  - (* Register *) destruct (stof s c) eqn:E; try assumption. now apply inv_register.
  - (* Write *)
    destruct (stof s c) as [|id mb| | | |] eqn:E; try assumption.
    destruct (lock_free s); [|assumption]. destruct (s_shut s) eqn:Sh.
    + rewrite fail_write_eq. apply inv_after_fail, (inv_close s c _ RConn (s_lock s) I E); [discriminate | now left].
    + apply (inv_written s c _ id mb (s_lock s) I E); [now left | assumption | left; now destruct mb].
  - (* WriteEnvFail *)
    destruct (stof s c) as [|id mb| | | |] eqn:E; try assumption. destruct (lock_free s); [|assumption].
    rewrite fail_write_eq. apply inv_after_fail, (inv_close s c _ RConn (s_lock s) I E); [discriminate | now left].
  - (* WStall *)
    destruct (stof s c) as [|id mb| | | |] eqn:E; try assumption.
    unfold lock_free. destruct (s_lock s) eqn:L; [assumption|]. destruct (s_shut s); [assumption|].
    (* [CReg id mb] and [CStall id mb] are open, and need an entry, for the same [mb] *)
    apply (inv_keep s c _ (CStall id mb) (Some c) I E); try discriminate; [reflexivity | now left | auto |].
    right; right; auto.
  - (* WStallEnd *)
    destruct (stof s c) as [| |id mb| | |] eqn:E; try assumption. destruct (s_shut s) eqn:Sh.
    + rewrite fail_write_eq. apply inv_after_fail, (inv_close s c _ RConn None I E); [discriminate | right; left; auto].
    + apply (inv_written s c _ id mb None I E); [now right | assumption | right; left; now destruct mb].
  - (* WStallEnvFail *)
    destruct (stof s c) as [| |id mb| | |] eqn:E; try assumption.
    rewrite fail_write_eq. apply inv_after_fail, (inv_close s c _ RConn None I E); [discriminate | right; left; auto].
  - (* TFire *)
    destruct (stof s c) as [| | |id| |] eqn:E; try assumption.
    apply (inv_keep s c _ (CFired id) (s_lock s) I E); try discriminate; [reflexivity | now left | intros [] | now left].
  - (* TRemove *)
    destruct (stof s c) as [| | | |id|] eqn:E; try assumption.
    apply (inv_close s c _ RTimeout (s_lock s) I E); [discriminate | now left].
  - (* Cancel *)
    destruct (s_kind s); [assumption| |];
      (destruct (stof s c) as [|id mb| |id| |] eqn:E; try assumption;
       apply (inv_close s c _ RCancelled (s_lock s) I E); (discriminate || now left)).
  - (* Subscribe *)
    destruct (s_sub s) eqn:U; try assumption.
    destruct (s_rd s) eqn:R; apply inv_set_sub; try assumption; intros _ H; try discriminate; rewrite R; reflexivity.
  - (* RTake *)
    destruct (s_rd s) eqn:R; try assumption.
    destruct (pfind (s_pending s) id) eqn:F; [now apply inv_take | now apply (inv_phase s _ _ I R)].
  - (* RDeliver *)
    destruct (s_rd s) as [|[c|]| | | | | | ] eqn:R; try assumption;
      [now apply inv_deliver | now apply (inv_phase s _ _ I R)].
  - (* RNotify *)
    destruct (s_rd s); try assumption. destruct (s_sub s); try assumption. now apply inv_set_nrecv.
  - (* ReadErr *)
    destruct (s_rd s) eqn:R; try assumption. now apply (inv_phase s _ _ I R).
  - (* SubEnd: whatever the client, no WebSocket subscriber is open afterwards *)
    destruct (s_rd s) eqn:R; try assumption.
    destruct (sub_live s) eqn:Ls.
    + unfold sub_live in Ls. destruct (s_sub s) eqn:U; try discriminate. destruct (s_kind s) eqn:K; try discriminate.
      apply (inv_phase (set_sub s SEnded) RErr); [apply inv_set_sub; [assumption | discriminate] | exact R | reflexivity].
    + assert (E : match s_kind s, s_sub s with KWs, SSub => set_sub s SEnded | _, _ => s end = s).
      { unfold sub_live in Ls. destruct (s_sub s), (s_kind s); reflexivity || discriminate. }
      rewrite E. apply (inv_phase s _ _ I R). now rewrite Ls.
  - (* OwnShut *)
    destruct (s_rd s) eqn:R; try assumption.
    now apply (inv_phase (set_shut s true) RSubEnded _ (inv_set_shut s I) R).
  - (* LockShut *)
    destruct (s_rd s) eqn:R; try assumption; destruct (s_kind s) eqn:K; try assumption;
      (destruct (lock_free s); [now apply (inv_phase s _ _ I R) | assumption]).
  - (* Drain *)
    destruct (s_rd s) eqn:R; try assumption; destruct (s_kind s) eqn:K; try assumption;
      (apply inv_drain_rd; [assumption | now rewrite R | discriminate | reflexivity]).
  - (* RStop: the guard that set the flag has shut the socket *)
    destruct (s_rd s) eqn:R; try assumption. destruct (s_kind s) eqn:K; try assumption.
    destruct (s_gstop s) eqn:G; [|assumption].
    apply (inv_phase s _ _ I R). unfold sub_live. rewrite (i_shut s I (or_intror G)), G, K. now destruct (s_sub s).
Qed.

Lemma inv_run s l : inv s -> inv (run s l).
Proof.
  revert s. induction l as [|e l IH]; intros s I; [exact I|]. cbn [run fold_left]. apply IH. now apply inv_do_step.
Qed.

Lemma run_app s l1 l2 : run s (l1 ++ l2) = run (run s l1) l2.
Proof. unfold run. apply fold_left_app. Qed.

Lemma run_cons s e l : run s (e :: l) = run (do_step s e) l.
Proof. reflexivity. Qed.

Lemma run_snoc s l e : run s (l ++ [e]) = do_step (run s l) e.
Proof. apply run_app. Qed.

Lemma kind_do_step s e : s_kind (do_step s e) = s_kind s.
Proof.
  assert (F : forall s c id g, s_kind (fail_write s c id g) = s_kind s)
    by (intros; rewrite fail_write_eq; exact (proj1 (after_fail_frame _ _))).
  destruct e; cbn [do_step].
  (* a caller's step looks at its state, at the lock and at the shut flag *)
  1-8: destruct (stof s c); try reflexivity;
    destruct (lock_free s), (s_shut s); reflexivity || apply F || apply (F (set_lock s None)).
  - destruct (s_kind s) eqn:K, (stof s c); exact K.
  - destruct (s_sub s); try reflexivity; destruct (s_rd s); reflexivity.
  - destruct (s_rd s); try reflexivity; destruct (pfind (s_pending s) id); reflexivity.
  - destruct (s_rd s) as [|[|]| | | | | | ]; reflexivity.
  - destruct (s_rd s); try reflexivity; destruct (s_sub s); reflexivity.
  - now destruct (s_rd s).
  - destruct (s_rd s); try reflexivity. destruct (s_kind s) eqn:K, (s_sub s); exact K.
  - now destruct (s_rd s).
  - destruct (s_rd s); try reflexivity; destruct (s_kind s) eqn:K; try exact K; destruct (lock_free s); exact K.
  - destruct (s_rd s); try reflexivity; destruct (s_kind s) eqn:K; exact K.
  - destruct (s_rd s); try reflexivity; destruct (s_kind s) eqn:K; try exact K; destruct (s_gstop s); exact K.
Qed.

Lemma kind_run s l : s_kind (run s l) = s_kind s.
Proof.
  revert s. induction l as [|e l IH]; intros s; [reflexivity|]. rewrite run_cons, IH. apply kind_do_step.
Qed.

Theorem reachable_inv k l : inv (run (init k) l).
Proof. apply inv_run, inv_init. Qed.

(** a caller waiting for its response either has the response in the reader's
    hand, or still has its entry in the pending map of a response loop that
    has neither drained nor been told to stop *)
Lemma no_hang_inv s c id :
  inv s -> stof s c = CWait id ->
  s_rd s = RHold (Some c) \/ (In (id, c) (s_pending s) /\ dead s = false).
Proof.
  intros I H. destruct (dead s) eqn:D.
  - left. now apply (i_live s I c id).
  - assert (Hn : needs_entry (stof s c)) by (rewrite H; exact Logic.I).
    destruct (i_open s I c Hn) as [H1|H1]; [now left|]. rewrite H in H1. right. now split.
Qed.

Lemma dead_no_waiter s c id : inv s -> s_rd s = RDead \/ s_rd s = RDrained -> stof s c <> CWait id.
Proof.
  intros I Hr H. assert (D : dead s = true) by (unfold dead; destruct Hr as [R|R]; now rewrite R).
  pose proof (i_live s I c id H D) as H1. destruct Hr as [R|R]; congruence.
Qed.

Lemma shut_after_fail s : inv s -> past_fail (s_rd s) = true -> s_shut s = true.
Proof. intros I H. apply (i_shut s I). now left. Qed.

Lemma stof_fail_write s c id g : stof (fail_write s c id g) c = CDone id RConn.
Proof.
  rewrite fail_write_eq. destruct (after_fail_frame (own_fail s c id) g) as (_&_&_&_&_&_&W).
  assert (E : stof (own_fail s c id) c = CDone id RConn) by apply cget_cset_same.
  destruct (W c) as [H|H]; rewrite H, E; reflexivity.
Qed.

Lemma write_after_shut s c id mb :
  s_shut s = true -> lock_free s = true -> stof s c = CReg id mb ->
  stof (do_step s (Write c)) c = CDone id RConn.
Proof. intros Sh L E. cbn [do_step]. rewrite E, L, Sh. apply stof_fail_write. Qed.

Lemma later_call_errors s c :
  s_shut s = true -> lock_free s = true -> stof s c = CNone ->
  stof (run s [Register c; Write c]) c = CDone (s_next s) RConn.
Proof.
  intros Sh L E. cbn [run fold_left]. cbn [do_step]. rewrite E.
  apply (write_after_shut _ c (s_next s) None); unfold stof, lock_free; cbn [set_next set_pc s_shut s_lock s_cs]; try assumption.
  apply cget_cset_same.
Qed.

Lemma no_residue_inv s c id r : inv s -> stof s c = CDone id r -> pfind (s_pending s) id = None.
Proof.
  intros I H. apply pfind_none. intros c' Hin.
  destruct (i_entry s I id c' Hin) as [H1 H2].
  assert (Hc : stof s c <> CNone) by (rewrite H; congruence).
  assert (c = c') by (apply (i_uniq s I c c' Hc); rewrite H, H1; reflexivity). subst c'.
  rewrite H in H2. exact H2.
Qed.

Lemma unknown_response_noop s id :
  s_rd s = RAlive -> pfind (s_pending s) id = None -> run s [RTake id; RDeliver] = s.
Proof.
  intros R F. cbn [run fold_left do_step]. rewrite R, F. cbn [set_rd s_rd].
  destruct s; cbn in *; subst; reflexivity.
Qed.

Lemma late_response_noop s c id r :
  inv s -> s_rd s = RAlive -> stof s c = CDone id r -> run s [RTake id; RDeliver] = s.
Proof. intros I R H. apply unknown_response_noop; [assumption|]. now apply (no_residue_inv s c id r). Qed.

Lemma response_goes_to_owner s id c :
  inv s -> pfind (s_pending s) id = Some c -> id_of (stof s c) = id.
Proof. intros I F. apply pfind_in in F. now apply (i_entry s I id c). Qed.

(** the subscriber's stream is ended before writes are made to fail and before
    any waiter is failed *)
Lemma subscriber_ended s : inv s -> s_kind s = KWs -> before_subend (s_rd s) = false -> s_sub s <> SSub.
Proof. intros I K B U. pose proof (i_sub s I K U). congruence. Qed.

Lemma subend_ends s : s_rd s = RErr -> s_kind s = KWs -> s_sub s = SSub -> s_sub (do_step s SubEnd) = SEnded.
Proof. intros R K U. cbn [do_step]. rewrite R, K, U. reflexivity. Qed.

Definition glob_rd (s s' : st) (r : rphase) : Prop :=
  s_kind s' = s_kind s /\ s_rd s' = r /\ s_shut s' = s_shut s /\ s_gstop s' = s_gstop s /\
  s_lock s' = s_lock s /\ s_sub s' = s_sub s /\ s_nrecv s' = s_nrecv s.
Definition glob_eq (s s' : st) : Prop := glob_rd s s' (s_rd s).
Definition upd1 (s s' : st) (c : N) (v : cst) : Prop :=
  stof s' c = v /\ forall c', c' <> c -> stof s' c' = stof s c'.
Definition same_cs (s s' : st) : Prop := forall c, stof s' c = stof s c.

Lemma glob_eq_refl s : glob_eq s s.
Proof. unfold glob_eq, glob_rd. tauto. Qed.

(** [s'] is [s] with the response loop in phase [r] and caller [c] in state
    [w]: no other connection-wide field differs (the pending map and the
    counter are covered by the invariant), and the invariant has been kept.
    The lemmas [p_register] to [p_respond] below carry such a description of
    a run from [s0] over one more step, so a scenario is followed by applying
    them in the order of its steps; the other [p_*] are plain equations. *)
Definition moved (s s' : st) (r : rphase) (c : N) (w : cst) : Prop :=
  (inv s -> inv s') /\ glob_rd s s' r /\ upd1 s s' c w.

Lemma moved_refl s c r w : s_rd s = r -> stof s c = w -> moved s s r c w.
Proof. intros <- <-. split; [auto | split; [apply glob_eq_refl | now split]]. Qed.

Lemma moved_trans {s s1 s2 r1 r2 c w1 w2} :
  moved s s1 r1 c w1 -> moved s1 s2 r2 c w2 -> moved s s2 r2 c w2.
Proof.
  intros (I1 & (a&b&c0&d&e&f&g) & U1 & O1) (I2 & (a'&b'&c'&d'&e'&f'&g') & U2 & O2).
  split; [auto | split; [unfold glob_rd; repeat split; congruence | split; [assumption|]]].
  intros c1 H. rewrite (O2 c1 H). now apply O1.
Qed.

Lemma moved_rd {s s' r c w} : moved s s' r c w -> s_rd s' = r.
Proof. intros (_ & (_&H&_) & _). exact H. Qed.

Lemma moved_at {s s' r c w} : moved s s' r c w -> stof s' c = w.
Proof. intros (_ & _ & H & _). exact H. Qed.

Lemma moved_next {s0 s r c w} e r' w' :
  moved s0 s r c w -> glob_rd s (do_step s e) r' -> upd1 s (do_step s e) c w' ->
  moved s0 (do_step s e) r' c w'.
Proof. intros H G U. apply (moved_trans H). split; [now apply inv_do_step | now split]. Qed.

(* of the two goals [moved_next] leaves: [globs] closes the [glob_rd] one, [upds] the [upd1] one *)
Ltac globs := unfold glob_eq, glob_rd; fields; repeat split; try reflexivity; try congruence.

Ltac upds := unfold upd1, stof; fields; split; [apply cget_cset_same | intros ? ?; now apply cget_cset_other].

Lemma p_register s0 s r c : moved s0 s r c CNone ->
  moved s0 (do_step s (Register c)) r c (CReg (s_next s) None).
Proof.
  intros H. pose proof H as (_ & (_&R&_) & E & _).
  apply (moved_next _ _ _ H); cbn [do_step]; rewrite E; [globs | upds].
Qed.

(** a request write with the lock free: it goes out, or fails because the
    socket was shut (no frame write had begun, so no guard fires) *)
Lemma p_write s0 s r c id : s_lock s0 = None -> moved s0 s r c (CReg id None) ->
  moved s0 (do_step s (Write c)) r c (if s_shut s0 then CDone id RConn else CWait id).
Proof.
  intros L H. pose proof H as (_ & (_&R&Sh&_&Lk&_) & E & _). rewrite <- Sh. rewrite <- Lk in L.
  apply (moved_next _ _ _ H); cbn [do_step]; unfold lock_free; rewrite E, L;
    destruct (s_shut s) eqn:Sh'; unfold fail_write, own_fail, written; cbn [set_pc s_kind];
    try (destruct (s_kind s)); first [upds | globs].
Qed.

Lemma p_tfire s0 s r c id : moved s0 s r c (CWait id) -> moved s0 (do_step s (TFire c)) r c (CFired id).
Proof.
  intros H. pose proof H as (_ & (_&R&_) & E & _).
  apply (moved_next _ _ _ H); cbn [do_step]; rewrite E; [globs | upds].
Qed.

Lemma p_tremove s0 s r c id : moved s0 s r c (CFired id) ->
  moved s0 (do_step s (TRemove c)) r c (CDone id RTimeout).
Proof.
  intros H. pose proof H as (_ & (_&R&_) & E & _).
  apply (moved_next _ _ _ H); cbn [do_step]; rewrite E; [globs | upds].
Qed.

Lemma p_cancel s0 s r c id : s_kind s0 <> KTcp -> moved s0 s r c (CWait id) ->
  moved s0 (do_step s (Cancel c)) r c (CDone id RCancelled).
Proof.
  intros K H. pose proof H as (_ & (Ks&R&_) & E & _). rewrite <- Ks in K.
  apply (moved_next _ _ _ H); cbn [do_step]; (destruct (s_kind s); [congruence| |]); rewrite E; first [upds | globs].
Qed.

Lemma p_noop_done s c id r e :
  stof s c = CDone id r ->
  match e with Register c' | Write c' | TFire c' | TRemove c' | Cancel c' | WStall c' | WStallEnd c' | WStallEnvFail c' | WriteEnvFail c' => c' = c | _ => False end ->
  do_step s e = s.
Proof.
  intros E H. destruct e; try contradiction; subst; cbn [do_step]; rewrite E; try reflexivity.
  destruct (s_kind s); reflexivity.
Qed.

Lemma p_take s0 s id c w : moved s0 s RAlive c w ->
  moved s0 (do_step s (RTake id)) (RHold (pfind (s_pending s) id)) c w.
Proof.
  intros H. pose proof H as (_ & (_&R&_) & E & _).
  apply (moved_next _ _ _ H); cbn [do_step]; rewrite R; destruct (pfind (s_pending s) id);
    first [split; [exact E | intros; reflexivity] | globs].
Qed.

Lemma p_deliver s0 s c w : moved s0 s (RHold (Some c)) c w ->
  moved s0 (do_step s RDeliver) RAlive c (deliver_st w ROk).
Proof.
  intros H. pose proof H as (_ & (_&R&_) & E & _). rewrite <- E.
  apply (moved_next _ _ _ H); cbn [do_step]; rewrite R; unfold cdeliver; [globs | upds].
Qed.

Lemma p_deliver_none s0 s c w : moved s0 s (RHold None) c w -> moved s0 (do_step s RDeliver) RAlive c w.
Proof.
  intros H. pose proof H as (_ & (_&R&_) & E & _).
  apply (moved_next _ _ _ H); cbn [do_step]; rewrite R; [globs | split; [exact E | intros; reflexivity]].
Qed.

Lemma pfind_waiting s c id : inv s -> (forall o, s_rd s <> RHold o) -> stof s c = CWait id -> pfind (s_pending s) id = Some c.
Proof.
  intros I R E. assert (Hn : needs_entry (stof s c)) by (rewrite E; exact Logic.I).
  destruct (i_open s I c Hn) as [H|H]; [exfalso; eapply R; eauto|].
  rewrite E in H. apply in_pfind; [apply (i_nodup s I) | exact H].
Qed.

Lemma p_take_waiting s0 s c id : inv s0 -> moved s0 s RAlive c (CWait id) ->
  moved s0 (do_step s (RTake id)) (RHold (Some c)) c (CWait id).
Proof.
  intros I0 H. rewrite <- (pfind_waiting s c id);
    [now apply p_take | apply H, I0 | rewrite (moved_rd H); discriminate | apply (moved_at H)].
Qed.

Lemma pfind_owner s c id c' : inv s -> stof s c <> CNone -> id_of (stof s c) = id -> pfind (s_pending s) id = Some c' -> c' = c.
Proof.
  intros I Hc Hid F. apply pfind_in in F. destruct (i_entry s I id c' F) as [H1 _].
  symmetry. apply (i_uniq s I c c' Hc). congruence.
Qed.

Lemma pfind_zero s : inv s -> pfind (s_pending s) 0 = None.
Proof. intros I. apply pfind_none. intros c Hin. exact (proj1 (entry_ids s 0 c I Hin) eq_refl). Qed.

Lemma deliver_idle v r : ~ needs_entry v -> deliver_st v r = v.
Proof. destruct v as [|id [x|]|id [x|]|id|id|id x]; cbn; tauto. Qed.

(** a response for the id of [c]: the reader finds [c]'s entry and delivers to
    it, or finds none; a caller whose entry is gone is not waiting for one, so
    that delivery to nobody is what [deliver_st] does as well *)
Lemma p_respond s0 s c w : inv s0 -> moved s0 s RAlive c w -> w <> CNone ->
  moved s0 (run s [RTake (id_of w); RDeliver]) RAlive c (deliver_st w ROk).
Proof.
  intros I0 H Hc. pose proof (proj1 H I0) as I. pose proof (moved_rd H) as R.
  pose proof (moved_at H) as E. subst w. cbn [run fold_left].
  pose proof (p_take s0 s (id_of (stof s c)) c _ H) as H1.
  destruct (pfind (s_pending s) (id_of (stof s c))) as [c'|] eqn:F.
  - apply (pfind_owner s c _ c' I Hc eq_refl) in F. subst c'. now apply p_deliver.
  - rewrite deliver_idle; [now apply p_deliver_none|].
    intros Hn. destruct (i_open s I c Hn) as [Hh|Hin]; [congruence|].
    apply (in_pfind _ _ _ (i_nodup s I)) in Hin. congruence.
Qed.

(** the failing response loop always gets to the end: the steps it needs are
    its own and the end of a stalled write, never the peer's *)
Definition fail_seq (s : st) : list step :=
  [SubEnd; OwnShut] ++ (match s_lock s with Some c => [WStallEnd c] | None => [] end) ++ [LockShut; Drain; LockShut].

Definition end_sub (s : st) : sstate :=
  match s_kind s, s_sub s with KWs, SSub => SEnded | _, u => u end.

(** [s'] is [s] after writes were made to fail: shut, the loop in phase [r], the lock [l],
    the subscriber [u]; client kind and receive count as before *)
Definition failing (s s' : st) (r : rphase) (l : option N) (u : sstate) : Prop :=
  s_kind s' = s_kind s /\ s_rd s' = r /\ s_shut s' = true /\ s_lock s' = l /\ s_sub s' = u /\
  s_nrecv s' = s_nrecv s.

(** the failing reader's steps are equations ([p_lockshut] below: as long as
    no writer is stalled) *)
Lemma p_readerr s : s_rd s = RAlive -> do_step s ReadErr = set_rd s RErr.
Proof. intros R. cbn [do_step]. now rewrite R. Qed.

Lemma p_fail2 s : s_rd s = RErr ->
  run s [SubEnd; OwnShut] = set_rd (set_shut (set_sub s (end_sub s)) true) ROwnShut.
Proof.
  intros R. cbn [run fold_left do_step]. rewrite R. cbn [do_step set_rd s_rd]. unfold end_sub.
  destruct (s_kind s), (s_sub s) eqn:U; unfold set_shut, set_sub; fields; now rewrite ?U.
Qed.

(** what the shutdown makes of a caller: a stalled writer fails; anybody else
    is as before, or has been sent the error by the failing write's guard *)
Definition woken (w w' : cst) : Prop :=
  match w with CStall id _ => w' = CDone id RConn | _ => w' = w \/ w' = deliver_st w RConn end.

Lemma wstallend_shut s b : inv s -> s_shut s = true -> s_lock s = Some b ->
  let s' := do_step s (WStallEnd b) in
  failing s s' (s_rd s) None (s_sub s) /\ forall c, woken (stof s c) (stof s' c).
Proof.
  intros I Sh L. destruct (proj1 (i_lock s I b) L) as (id&mb&E).
  cbn zeta. cbn [do_step]. rewrite E, Sh, fail_write_eq.
  destruct (after_fail_frame (own_fail (set_lock s None) b id) true) as (K&R&L'&U&N&Sh'&W).
  split; [unfold failing; repeat apply conj; try assumption; now apply Sh'|].
  intros c. specialize (W c).
  assert (Eo : stof (own_fail (set_lock s None) b id) c = if c =? b then CDone id RConn else stof s c)
    by apply cget_cset.
  rewrite Eo in W. destruct (c =? b) eqn:Ec.
  - apply N.eqb_eq in Ec; subst c. rewrite E. destruct W as [W|W]; exact W.
  - destruct (stof s c) as [|i m|i m|i|i|i r] eqn:Es; try exact W.
    apply N.eqb_neq in Ec. destruct Ec.
    assert (s_lock s = Some c) by (apply (i_lock s I); eauto). congruence.
Qed.

Lemma stalled_writer_released s c :
  inv s -> s_shut s = true -> s_lock s = Some c ->
  lock_free (do_step s (WStallEnd c)) = true /\ exists id, stof (do_step s (WStallEnd c)) c = CDone id RConn.
Proof.
  intros I Sh L. destruct (wstallend_shut s c I Sh L) as ((_&_&_&L'&_)&W). unfold lock_free. rewrite L'.
  destruct (proj1 (i_lock s I c) L) as (id&mb&E). specialize (W c). rewrite E in W. eauto.
Qed.

Lemma p_lockshut s : s_rd s = ROwnShut -> s_lock s = None ->
  do_step s LockShut = set_rd s (if is_tcp (s_kind s) then RShutDone else ROwnShut).
Proof.
  intros R L. cbn [do_step]. unfold lock_free. rewrite R, L.
  destruct s as [k sh g r p cs n l u nr]; cbn in *; subst r. now destruct k.
Qed.

Lemma inv_unstall s : inv s -> inv (unstall s).
Proof. intros I. unfold unstall. destruct (s_lock s), (s_shut s); try assumption. now apply inv_do_step. Qed.

(** from the moment writes fail up to the probe point: the stalled writer, if
    any, gives up, and the blocking client shuts the socket once more *)
Lemma probe_from s : inv s -> s_rd s = ROwnShut -> s_shut s = true ->
  let s' := do_step (unstall s) LockShut in
  failing s s' (if is_tcp (s_kind s) then RShutDone else ROwnShut) None (s_sub s) /\
  forall c, if s_lock s then woken (stof s c) (stof s' c) else stof s' c = stof s c.
Proof.
  intros I R Sh. cbn zeta. unfold unstall. rewrite Sh. destruct (s_lock s) as [b|] eqn:L.
  - destruct (wstallend_shut s b I Sh L) as ((K3&R3&Sh3&L3&U3&N3)&W3).
    set (s3 := do_step s (WStallEnd b)) in *. clearbody s3.
    rewrite (p_lockshut s3), K3 by congruence. now split.
  - rewrite (p_lockshut s R L). now split.
Qed.

Lemma fault_to_shutdown_spec s : inv s -> s_rd s = RAlive ->
  let s' := fault_to_shutdown s in
  failing s s' (if is_tcp (s_kind s) then RShutDone else ROwnShut) None (end_sub s) /\
  forall c, if s_lock s then woken (stof s c) (stof s' c) else stof s' c = stof s c.
Proof.
  (* [I2] goes back into the goal so that the equations rewrite the state it speaks of too *)
  intros I R. pose proof (inv_run s [ReadErr; SubEnd; OwnShut] I) as I2. revert I2.
  unfold fault_to_shutdown. rewrite run_cons, (p_readerr s R), p_fail2 by reflexivity. intros I2.
  exact (probe_from _ I2 eq_refl eq_refl).
Qed.

Lemma finish_eq s :
  s_rd s = (if is_tcp (s_kind s) then RShutDone else ROwnShut) -> s_lock s = None ->
  run s [Drain; LockShut] = set_rd (drain_all s) RDead.
Proof.
  intros R L. cbn [run fold_left].
  assert (D : do_step s Drain = set_rd (drain_all s) (if is_tcp (s_kind s) then RDead else RDrained))
    by (cbn [do_step]; rewrite R; destruct (s_kind s); reflexivity).
  rewrite D. cbn [do_step]. unfold lock_free. cbn [set_rd drain_all set_pc s_rd s_kind s_lock]. rewrite L.
  destruct (s_kind s); reflexivity.
Qed.

Lemma unstall_run s :
  s_shut s = true -> unstall s = run s (match s_lock s with Some c => [WStallEnd c] | None => [] end).
Proof. intros Sh. unfold unstall. rewrite Sh. destruct (s_lock s); reflexivity. Qed.

Lemma reader_finishes s : inv s -> s_rd s = RErr -> s_rd (run s (fail_seq s)) = RDead.
Proof.
  intros I R. pose proof (inv_run s [SubEnd; OwnShut] I) as I2. revert I2.
  unfold fail_seq. rewrite !run_app, (p_fail2 s R). intros I2.
  set (s2 := set_rd (set_shut (set_sub s (end_sub s)) true) ROwnShut) in *.
  change (s_lock s) with (s_lock s2).
  rewrite <- (unstall_run s2 eq_refl), run_cons.
  destruct (probe_from s2 I2 eq_refl eq_refl) as ((K&R'&_&L'&_)&_).
  rewrite finish_eq; [reflexivity | now rewrite R', K | assumption].
Qed.

Definition cls (r : res) : oclass :=
  match r with ROk => OOk | RTimeout => OTimeout | RConn => OConn | RCancelled => OCancelled end.

(** what the model's state [w] of a caller may be when the specification has
    the call as [v].  A call in flight is waiting for its response.  With a
    stalled writer there are two more cases: while the connection lives the
    call may be that writer, its request unread; in the window, where the
    shutdown has already ended the stalled write, the call may have returned
    the error (the writer itself, and on the async client every call that the
    failing write's guard drained).  A returned call has a result of an
    allowed class. *)
Definition crel (stalled : bool) (ph : phase) (v : pst) (w : cst) : Prop :=
  match v with
  | PNone => w = CNone
  | PFlight kn =>
      (exists id, w = CWait id)
      \/ (stalled = true /\ ph = PhLive /\ kn = false /\ exists id, w = CStall id None)
      \/ (stalled = true /\ ph = PhWindow /\ exists id, w = CDone id RConn)
  | PFin _ l => exists id r, w = CDone id r /\ In (cls r) l
  end.

Definition sub_of (k : case) (ph : phase) : sstate :=
  if k_sub k then (match ph with PhLive => SSub | _ => SEnded end) else SNone.

(** the refinement relation: the model state satisfies the invariant, what the
    harness recorded agrees with the specification, the connection-wide
    fields are those that the phase dictates ([m_sub], [m_phase]: between
    events the loop is idle, parked at its probe point, or ended; the writer
    lock is free unless a writer is stalled), and every caller stands in
    [crel].  The specification state is not a function of the model state: it
    remembers which classes a returned call was allowed and what the server
    has read, which the model does not. *)
Record sim (k : case) (p : spst) (x : xst) : Prop := mkSim {
  m_inv : inv (x_s x);
  m_kind : s_kind (x_s x) = k_kind k;
  m_faulted : x_faulted x = match p_phase p with PhDead => true | _ => false end;
  m_subq : x_subq x = p_subq p;
  m_resid : x_resid x = repeat false (p_nprobe p);
  m_nn : s_nrecv (x_s x) = p_nn p;
  m_sub : s_sub (x_s x) = sub_of k (p_phase p);
  m_phase : match p_phase p with
            | PhLive => s_rd (x_s x) = RAlive /\ s_shut (x_s x) = false /\ (p_stalled p = false -> s_lock (x_s x) = None)
            | PhWindow => s_rd (x_s x) = (if is_tcp (k_kind k) then RShutDone else ROwnShut) /\
                          s_shut (x_s x) = true /\ s_lock (x_s x) = None
            | PhDead => s_rd (x_s x) = RDead /\ s_shut (x_s x) = true /\ s_lock (x_s x) = None
            end;
  m_cs : forall c, crel (p_stalled p) (p_phase p) (pget (p_cs p) c) (stof (x_s x) c)
}.

Lemma pget_pset l c v c' : pget (pset l c v) c' = if c' =? c then v else pget l c'.
Proof.
  induction l as [|[c0 v0] l IH]; cbn [pset pget].
  - rewrite (N.eqb_sym c c'). reflexivity.
  - destruct (c0 =? c) eqn:E; cbn [pget].
    + apply N.eqb_eq in E; subst c0. rewrite (N.eqb_sym c c'). destruct (c' =? c); reflexivity.
    + destruct (c0 =? c') eqn:E2; [|exact IH].
      apply N.eqb_eq in E2; subst c0. rewrite E. reflexivity.
Qed.

Lemma pget_fail_flights l c :
  pget (fail_flights l) c = match pget l c with PFlight kn => PFin kn [OConn] | v => v end.
Proof.
  induction l as [|[c0 v0] l IH]; cbn [fail_flights map pget]; [reflexivity|].
  destruct v0; cbn [snd fst pget]; destruct (c0 =? c); auto.
Qed.

(** the specification state after an event differs from [p] only in the caller
    table (and in [p_unread], which the relation does not look at) *)
Definition sp_like (p p' : spst) (cs' : list (N * pst)) : Prop :=
  p_phase p' = p_phase p /\ p_stalled p' = p_stalled p /\ p_cs p' = cs' /\
  p_subq p' = p_subq p /\ p_nn p' = p_nn p /\ p_nprobe p' = p_nprobe p.

Lemma sp_like_cs p cs' : sp_like p (sp_cs p cs') cs'.
Proof. unfold sp_like. cbn. tauto. Qed.

(** the relation only looks at the connection and at each caller *)
Lemma sim_glob k p p' x s' :
  sim k p x -> sp_like p p' (p_cs p') -> inv s' -> glob_eq (x_s x) s' ->
  (forall c, crel (p_stalled p) (p_phase p) (pget (p_cs p') c) (stof s' c)) ->
  sim k p' (mkX s' (x_faulted x) (x_subq x) (x_resid x)).
Proof.
  intros M (L1&L2&_&L4&L5&L6) I (G1&G2&G3&G4&G5&G6&G7) C.
  pose proof (m_phase k p x M) as Ph. destruct M.
  constructor; cbn [x_s x_faulted x_subq x_resid]; rewrite ?L1, ?L2, ?L4, ?L5, ?L6; try congruence; [|exact C].
  destruct (p_phase p); rewrite ?G2, ?G3, ?G5; exact Ph.
Qed.

Lemma sim_moved k p p' x c v' s' w' :
  sim k p x -> sp_like p p' (pset (p_cs p) c v') -> moved (x_s x) s' (s_rd (x_s x)) c w' ->
  crel (p_stalled p) (p_phase p) v' w' ->
  sim k p' (mkX s' (x_faulted x) (x_subq x) (x_resid x)).
Proof.
  intros M L (I & G & U1 & U2) C. pose proof L as (_&_&L3&_).
  apply (sim_glob k p p' x s' M); [now rewrite L3 | apply I, (m_inv k p x M) | exact G |].
  intros c'. rewrite L3, pget_pset. destruct (N.eqb_spec c' c) as [->|E]; [now rewrite U1|].
  rewrite (U2 c' E). apply (m_cs k p x M).
Qed.

Lemma sim_same k p p' x s' :
  sim k p x -> sp_like p p' (p_cs p) -> inv s' -> glob_eq (x_s x) s' -> same_cs (x_s x) s' ->
  sim k p' (mkX s' (x_faulted x) (x_subq x) (x_resid x)).
Proof.
  intros M L I G S. pose proof L as (_&_&L3&_). apply (sim_glob k p p' x s' M); try assumption.
  - now rewrite L3.
  - intros c'. rewrite L3, S. apply (m_cs k p x M).
Qed.

Lemma sp_like_refl p : sp_like p p (p_cs p).
Proof. unfold sp_like. tauto. Qed.

Lemma sim_fin k p x c kn l s' r0 id r :
  sim k p x -> s_rd (x_s x) = r0 -> moved (x_s x) s' r0 c (CDone id r) -> In (cls r) l ->
  sim k (sp_cs p (pset (p_cs p) c (PFin kn l))) (mkX s' (x_faulted x) (x_subq x) (x_resid x)).
Proof.
  intros M <- H Hin. apply (sim_moved k p _ x c (PFin kn l) s' (CDone id r) M (sp_like_cs _ _) H).
  cbn. eauto.
Qed.

Lemma p_start s c : stof s c = CNone -> s_lock s = None ->
  moved s (run s [Register c; Write c]) (s_rd s) c
        (if s_shut s then CDone (s_next s) RConn else CWait (s_next s)).
Proof.
  intros E L. exact (p_write _ _ _ _ _ L (p_register _ _ _ _ (moved_refl s c _ _ eq_refl E))).
Qed.

Lemma sp_start_inv n p c kn lf p' : sp_start n p c kn lf = Some p' ->
  pget (p_cs p) c = PNone /\
  ((p_phase p = PhLive /\ srv_reads p = true /\
    p' = sp_cs p (pset (p_cs p) c (match lf with Some l => PFin kn l | None => PFlight kn end)))
   \/ (p_phase p <> PhLive /\ p' = sp_cs p (pset (p_cs p) c (PFin false [OConn])))).
Proof.
  unfold sp_start. destruct (negb (c <? n)); [discriminate|].
  destruct (pget (p_cs p) c); try discriminate. split; [reflexivity|].
  destruct (p_phase p) eqn:Ph.
  - destruct (srv_reads p) eqn:Sr; cbn [negb] in *; [|discriminate]. inversion H; subst. left. tauto.
  - inversion H; subst. right. split; [discriminate | reflexivity].
  - inversion H; subst. right. split; [discriminate | reflexivity].
Qed.

Lemma live_phase p : live p = true -> p_phase p = PhLive.
Proof. unfold live. destruct (p_phase p); congruence. Qed.

Lemma sim_live k p x : sim k p x -> p_phase p = PhLive ->
  s_rd (x_s x) = RAlive /\ s_shut (x_s x) = false /\ (p_stalled p = false -> s_lock (x_s x) = None).
Proof. intros M Ph. pose proof (m_phase k p x M) as H. rewrite Ph in H. exact H. Qed.

Lemma sim_not_tcp k p x : sim k p x -> is_tcp (k_kind k) = false -> s_kind (x_s x) <> KTcp.
Proof. intros M T. rewrite (m_kind k p x M). now destruct (k_kind k). Qed.

Lemma sim_notlive k p x : sim k p x -> p_phase p <> PhLive -> s_shut (x_s x) = true /\ s_lock (x_s x) = None.
Proof. intros M Ph. pose proof (m_phase k p x M) as H. destruct (p_phase p); [congruence | tauto | tauto]. Qed.

Lemma srv_reads_unstalled p : srv_reads p = true -> p_stalled p = false.
Proof. unfold srv_reads. destruct (p_stalled p); [discriminate | reflexivity]. Qed.

Lemma sim_none k p x c : sim k p x -> pget (p_cs p) c = PNone -> stof (x_s x) c = CNone.
Proof. intros M H. pose proof (m_cs k p x M c) as C. rewrite H in C. exact C. Qed.

Lemma sim_started k p x c kn lf p' :
  sim k p x -> sp_start (k_n k) p c kn lf = Some p' ->
  let s := x_s x in
  (p_phase p = PhLive /\ s_rd s = RAlive /\
   p' = sp_cs p (pset (p_cs p) c (match lf with Some l => PFin kn l | None => PFlight kn end)) /\
   moved s (run s [Register c; Write c]) RAlive c (CWait (s_next s)))
  \/ (p_phase p <> PhLive /\ p' = sp_cs p (pset (p_cs p) c (PFin false [OConn])) /\
      moved s (run s [Register c; Write c]) (s_rd s) c (CDone (s_next s) RConn)).
Proof.
  intros M Hs. cbn zeta. destruct (sp_start_inv _ _ _ _ _ _ Hs) as [Hn [(Ph&Sr&->)|(Ph&->)]].
  - left. destruct (sim_live k p x M Ph) as (R&Sh&L).
    pose proof (p_start (x_s x) c (sim_none k p x c M Hn) (L (srv_reads_unstalled p Sr))) as H.
    rewrite R, Sh in H. auto.
  - right. destruct (sim_notlive k p x M Ph) as (Sh&L).
    pose proof (p_start (x_s x) c (sim_none k p x c M Hn) L) as H. rewrite Sh in H. auto.
Qed.

Lemma sim_start k p x c kn p' p'' :
  sim k p x -> sp_start (k_n k) p c kn None = Some p' -> sp_like p' p'' (p_cs p') ->
  sim k p'' (on_s x (fun s => run s [Register c; Write c])).
Proof.
  intros M Hs Hl. unfold on_s. destruct (sim_started k p x c kn None p' M Hs) as [(Ph&R&->&H)|(Ph&->&H)].
  - rewrite <- R in H. apply (sim_moved k p p'' x c (PFlight kn) _ _ M Hl H). left. eauto.
  - apply (sim_moved k p p'' x c (PFin false [OConn]) _ _ M Hl H). cbn. eauto.
Qed.

Lemma sim_expire k p x c l p' :
  sim k p x -> sp_start (k_n k) p c true (Some l) = Some p' -> In OTimeout l ->
  sim k p' (on_s x (fun s => run s [Register c; Write c; TFire c; TRemove c])).
Proof.
  intros M Hs Hl. unfold on_s. cbn [run fold_left].
  destruct (sim_started k p x c true (Some l) p' M Hs) as [(Ph&R&->&H)|(Ph&->&H)].
  - apply (sim_fin k p x c _ _ _ RAlive (s_next (x_s x)) RTimeout M R); [|exact Hl].
    exact (p_tremove _ _ _ _ _ (p_tfire _ _ _ _ _ H)).
  - apply (sim_fin k p x c _ _ _ _ (s_next (x_s x)) RConn M eq_refl); [|now left].
    now rewrite !(p_noop_done _ c _ _ _ (moved_at H)).
Qed.

Lemma flight_live k p x c :
  sim k p x -> p_phase p = PhLive -> pget (p_cs p) c = PFlight true -> exists id, stof (x_s x) c = CWait id.
Proof.
  intros M Ph H. pose proof (m_cs k p x M c) as C. rewrite H, Ph in C. cbn in C.
  destruct C as [C|[(_&_&C&_)|(_&C&_)]]; [assumption | discriminate | discriminate].
Qed.

Lemma fin_done k p x c kn l :
  sim k p x -> pget (p_cs p) c = PFin kn l -> exists id r, stof (x_s x) c = CDone id r /\ In (cls r) l.
Proof. intros M H. pose proof (m_cs k p x M c) as C. rewrite H in C. exact C. Qed.

(** XA, XB, XC: the timeout races a response to the same call.  Whichever of
    the two gets to the entry first, the call returns the timeout: a response
    delivered to a caller that has decided on the timeout is not looked at,
    and one that finds no entry is dropped. *)
Lemma sim_expire_raced k p x c e p' :
  sim k p x -> e = EExpireA c \/ e = EExpireB c \/ e = EExpireC c ->
  spec_step k p e = Some p' -> sim k p' (exec_event x e).
Proof.
  intros M He Hs. pose proof (m_inv k p x M) as I.
  assert (Hs' : live p = true /\ sp_start (k_n k) p c true (Some [OTimeout; OOk]) = Some p').
  { destruct He as [->|[->| ->]]; cbn [spec_step] in Hs; destruct (live p); auto;
      rewrite ?andb_false_r in Hs; try discriminate.
    destruct (is_tcp (k_kind k)); [auto | discriminate]. }
  destruct Hs' as [Lv Hs']. apply live_phase in Lv.
  destruct (sim_started k p x c _ _ p' M Hs') as [(_&R&->&H1)|(Ph'&_)]; [|congruence].
  set (n := s_next (x_s x)) in *.
  destruct He as [->|[->| ->]]; cbn [exec_event]; unfold on_s; cbn zeta;
    (apply (sim_fin k p x c _ _ _ RAlive n RTimeout M R); [|now left]).
  - change [Register c; Write c; TFire c] with ([Register c; Write c] ++ [TFire c]). rewrite run_snoc.
    pose proof (p_tfire _ _ _ _ _ H1) as H2. rewrite (moved_at H2). cbn [id_of].
    change [RTake n; RDeliver; TRemove c] with ([RTake n; RDeliver] ++ [TRemove c]). rewrite run_snoc.
    exact (p_tremove _ _ _ _ _ (p_respond _ _ _ _ I H2 ltac:(discriminate))).
  - rewrite (moved_at H1). cbn [id_of run fold_left].
    exact (p_deliver _ _ _ _ (p_tremove _ _ _ _ _ (p_tfire _ _ _ _ _ (p_take_waiting _ _ _ _ I H1)))).
  - change [Register c; Write c; TFire c; TRemove c] with (([Register c; Write c] ++ [TFire c]) ++ [TRemove c]).
    rewrite !run_snoc.
    pose proof (p_tremove _ _ _ _ _ (p_tfire _ _ _ _ _ H1)) as H2. rewrite (moved_at H2).
    exact (p_respond _ _ _ _ I H2 ltac:(discriminate)).
Qed.

Lemma sim_respond k p x c p' :
  sim k p x -> spec_step k p (ERespond c) = Some p' -> sim k p' (exec_event x (ERespond c)).
Proof.
  intros M Hs. cbn [spec_step] in Hs. destruct (live p) eqn:Lv; cbn [negb] in Hs; [|discriminate].
  pose proof (live_phase p Lv) as Ph. pose proof (m_inv k p x M) as I.
  destruct (sim_live k p x M Ph) as (R&Sh&L).
  cbn [exec_event]. unfold on_s.
  destruct (pget (p_cs p) c) as [|[|]|[|] l] eqn:E; try discriminate; inversion Hs; subst p'.
  - destruct (flight_live k p x c M Ph E) as [id Ew]. rewrite Ew. cbn [id_of].
    apply (sim_fin k p x c _ _ _ RAlive id ROk M R); [|now left].
    exact (p_respond _ _ _ _ I (moved_refl _ c _ _ R Ew) ltac:(discriminate)).
  - destruct (fin_done k p x c _ _ M E) as (id&r&Ed&_). rewrite Ed. cbn [id_of].
    rewrite (late_response_noop (x_s x) c id r I R Ed). destruct x; exact M.
Qed.

Lemma sim_unknown k p x : sim k p x -> p_phase p = PhLive -> sim k p (exec_event x EUnknown).
Proof.
  intros M Ph. destruct (sim_live k p x M Ph) as (R&_).
  cbn [exec_event]. unfold on_s.
  rewrite (unknown_response_noop (x_s x) 0 R (pfind_zero _ (m_inv k p x M))). destruct x; exact M.
Qed.

Lemma sim_cancel k p x c p' :
  sim k p x -> spec_step k p (ECancel c) = Some p' -> sim k p' (exec_event x (ECancel c)).
Proof.
  intros M Hs. cbn [spec_step] in Hs. destruct (is_tcp (k_kind k)) eqn:T; [discriminate|].
  pose proof (sim_not_tcp k p x M T) as K.
  cbn [exec_event]. unfold on_s.
  destruct (pget (p_cs p) c) as [|kn|kn l] eqn:E; try discriminate.
  pose proof (m_cs k p x M c) as C. rewrite E in C. cbn in C.
  destruct (p_phase p) eqn:Ph; try discriminate; destruct (p_stalled p) eqn:St; try discriminate; inversion Hs; subst p';
    (destruct C as [[id C]|[(C&_)|(C&_)]]; [|discriminate|discriminate]);
    apply (sim_fin k p x c _ _ _ _ id RCancelled M eq_refl (p_cancel _ _ _ c id K (moved_refl _ c _ _ eq_refl C))); now left.
Qed.

(** CB, CC: the cancellation races a response to the same call; the call is
    cancelled in either order *)
Lemma sim_cancel_raced k p x c e p' :
  sim k p x -> e = ECancelB c \/ e = ECancelC c ->
  spec_step k p e = Some p' -> sim k p' (exec_event x e).
Proof.
  intros M He Hs. pose proof (m_inv k p x M) as I.
  assert (Hs' : spec_step k p (ECancelB c) = Some p') by (destruct He as [->| ->]; exact Hs).
  cbn [spec_step] in Hs'. destruct (is_tcp (k_kind k)) eqn:T; [discriminate|].
  destruct (live p) eqn:Lv; cbn [negb orb] in Hs'; [|discriminate]. pose proof (live_phase p Lv) as Ph.
  destruct (pget (p_cs p) c) as [|[|]|kn l] eqn:E; try discriminate. inversion Hs'; subst p'.
  pose proof (sim_not_tcp k p x M T) as K. destruct (sim_live k p x M Ph) as (R&_).
  destruct (flight_live k p x c M Ph E) as [id Ew].
  pose proof (moved_refl (x_s x) c _ _ R Ew) as H0.
  destruct He as [->| ->]; cbn [exec_event]; unfold on_s; rewrite Ew; cbn [id_of run fold_left];
    (apply (sim_fin k p x c _ _ _ RAlive id RCancelled M R); [|now left]).
  - exact (p_deliver _ _ _ _ (p_cancel _ _ _ _ _ K (p_take_waiting _ _ _ _ I H0))).
  - exact (p_respond _ _ _ _ I (p_cancel _ _ _ _ _ K H0) ltac:(discriminate)).
Qed.

Lemma sim_notify k p x p' :
  sim k p x -> spec_step k p ENotify = Some p' -> sim k p' (exec_event x ENotify).
Proof.
  intros M Hs. cbn [spec_step] in Hs.
  destruct (live p) eqn:Lv; [|discriminate]. destruct (is_ws (k_kind k)) eqn:W; [|discriminate].
  destruct (k_sub k) eqn:Ks; [|discriminate]. cbn [andb] in Hs. inversion Hs; subst p'.
  pose proof (live_phase p Lv) as Ph.
  destruct (sim_live k p x M Ph) as (R&Sh&L).
  assert (U : s_sub (x_s x) = SSub) by (rewrite (m_sub k p x M); unfold sub_of; now rewrite Ks, Ph).
  cbn [exec_event]. unfold on_s. cbn [do_step]. rewrite R, U.
  pose proof (inv_set_nrecv (x_s x) (s_nrecv (x_s x) + 1) (m_inv k p x M)) as I2.
  destruct M.
  constructor; fields; try assumption.
  congruence.
Qed.

Lemma sim_query k p x p' :
  sim k p x -> spec_step k p EQuery = Some p' -> sim k p' (exec_event x EQuery).
Proof.
  intros M Hs. cbn [spec_step] in Hs. inversion Hs; subst p'. cbn [exec_event].
  pose proof (m_sub k p x M) as U. pose proof (m_subq k p x M) as Q.
  destruct M.
  constructor; fields; try assumption.
  rewrite Q. f_equal. rewrite U. unfold sub_of, live. destruct (k_sub k); [|reflexivity].
  destruct (p_phase p); reflexivity.
Qed.

Lemma crel_stall_mono ph v w : crel false ph v w -> crel true ph v w.
Proof. destruct v; cbn; intuition discriminate. Qed.

(** a call whose write blocks: the caller holds the writer lock from then on *)
Lemma p_stall s c : stof s c = CNone -> s_lock s = None -> s_shut s = false ->
  run s [Register c; WStall c] =
  set_lock (set_next (set_pc s (s_pending s ++ [(s_next s, c)])
                              (cset (cset (s_cs s) c (CReg (s_next s) None)) c (CStall (s_next s) None)))
                     (s_next s + 1)) (Some c).
Proof.
  intros E L Sh. rewrite run_cons. cbn [do_step]. rewrite E. cbn [run fold_left do_step].
  unfold stof, lock_free. fields. now rewrite cget_cset_same, L, Sh.
Qed.

Lemma sim_stall k p x c p' :
  sim k p x -> spec_step k p (EStallStart c) = Some p' -> sim k p' (exec_event x (EStallStart c)).
Proof.
  intros M Hs. cbn [spec_step] in Hs. destruct (live p) eqn:Lv; cbn [negb] in Hs; [|discriminate].
  pose proof (live_phase p Lv) as Ph.
  destruct (sp_start (k_n k) p c false None) as [p0|] eqn:Hs0; [|discriminate]. inversion Hs; subst p'.
  destruct (sp_start_inv _ _ _ _ _ _ Hs0) as [Hn [(_&Sr&->)|(Ph'&_)]]; [|congruence].
  pose proof (srv_reads_unstalled p Sr) as St.
  destruct (sim_live k p x M Ph) as (R&Sh&L). specialize (L St).
  cbn [exec_event]. unfold on_s.
  pose proof (inv_run _ [Register c; WStall c] (m_inv k p x M)) as I2.
  rewrite (p_stall _ c (sim_none k p x c M Hn) L Sh) in *.
  pose proof (m_cs k p x M) as Cs. destruct M.
  constructor; fields; try assumption.
  - rewrite Ph. repeat split; [exact R | exact Sh | discriminate].
  - intros c'. unfold stof. fields. rewrite pget_pset, !cget_cset. destruct (c' =? c).
    + right. left. rewrite Ph. repeat split. eauto.
    + apply crel_stall_mono. rewrite <- St. apply Cs.
Qed.

Lemma sim_probe k p x c p' :
  sim k p x -> spec_step k p (EProbe c) = Some p' -> sim k p' (exec_event x (EProbe c)).
Proof.
  intros M Hs. cbn [spec_step] in Hs.
  destruct (is_async (k_kind k) && live p && srv_reads p); [|discriminate].
  destruct (pget (p_cs p) c) as [|kn|[|] l] eqn:E; try discriminate. inversion Hs; subst p'.
  destruct (fin_done k p x c _ _ M E) as (id&r&Ed&_).
  cbn [exec_event]. rewrite Ed. cbn [id_of]. rewrite (no_residue_inv _ c id r (m_inv k p x M) Ed).
  pose proof (m_resid k p x M) as Rs. destruct M.
  constructor; fields; try assumption.
  rewrite Rs. symmetry. apply repeat_cons.
Qed.

Lemma sub_of_fail k p x :
  sim k p x -> (k_sub k = true -> k_kind k = KWs) -> p_phase p = PhLive ->
  end_sub (x_s x) = sub_of k PhWindow.
Proof.
  intros M Hk Ph. unfold end_sub. rewrite (m_kind k p x M), (m_sub k p x M), Ph. unfold sub_of.
  destruct (k_sub k) eqn:Ks; [rewrite (Hk eq_refl); reflexivity | destruct (k_kind k); reflexivity].
Qed.

Lemma crel_window st v w w' :
  crel st PhLive v w ->
  (st = true /\ woken w w') \/ (w' = w /\ forall id mb, w <> CStall id mb) ->
  crel st PhWindow v w'.
Proof.
  intros C H. destruct v as [|kn|kn l]; cbn [crel] in *.
  - subst w. destruct H as [[_ [H|H]]|[H _]]; exact H.
  - destruct C as [[id ->]|[(St&_&_&id&->)|(_&E&_)]]; [| |discriminate]; cbn [woken deliver_st] in H.
    + destruct H as [[St [->| ->]]|[-> _]]; [left | right; right | left]; eauto.
    + destruct H as [[_ ->]|[_ H]]; [right; right; eauto | now destruct (H id None)].
  - destruct C as (id&r&->&Hin). exists id, r. split; [|assumption].
    destruct H as [[_ [H|H]]|[H _]]; exact H.
Qed.

Lemma sim_fault_park k p x :
  (k_sub k = true -> k_kind k = KWs) ->
  sim k p x -> p_phase p = PhLive -> sim k (sp_phase p PhWindow) (exec_event x EFaultPark).
Proof.
  intros Hk M Ph. destruct (sim_live k p x M Ph) as (R&Sh&L). pose proof (m_inv k p x M) as I.
  pose proof (sub_of_fail k p x M Hk Ph) as Us.
  cbn [exec_event]. unfold on_s.
  assert (I' : inv (fault_to_shutdown (x_s x))) by apply inv_do_step, inv_unstall, inv_run, I.
  destruct (fault_to_shutdown_spec (x_s x) I R) as ((K&R'&Sh'&L'&U&N)&W).
  set (s' := fault_to_shutdown (x_s x)) in *. clearbody s'.
  pose proof (m_kind k p x M) as Kd. pose proof (m_faulted k p x M) as Fl. pose proof (m_cs k p x M) as Cs.
  destruct M.
  constructor; fields; try assumption; try congruence.
  - now rewrite Ph in Fl.
  - rewrite R', Kd. auto.
  - intros c. apply (crel_window _ _ (stof (x_s x) c)); [rewrite <- Ph; apply Cs|].
    specialize (W c). destruct (s_lock (x_s x)) eqn:Lk.
    + left. split; [|exact W]. destruct (p_stalled p); [reflexivity | discriminate (L eq_refl)].
    + right. split; [exact W|]. intros id mb E.
      assert (s_lock (x_s x) = Some c) by (apply (i_lock _ I); eauto). congruence.
Qed.

Lemma crel_dead st v w w' :
  crel st PhWindow v w -> w' = w \/ w' = deliver_st w RConn -> (forall i, w' <> CWait i) ->
  crel st PhDead (match v with PNone => PNone | PFlight kn => PFin kn [OConn] | PFin kn l => PFin kn l end) w'.
Proof.
  intros C H Hw. destruct v as [|kn|kn l]; cbn [crel] in *.
  - subst w. destruct H as [H|H]; exact H.
  - destruct C as [[i ->]|[(_&E&_)|(_&_&i&->)]]; [|discriminate|]; cbn [deliver_st] in H;
      exists i, RConn; (split; [|now left]); destruct H as [H|H]; try exact H.
    now destruct (Hw i).
  - destruct C as (i&r&->&Hin). exists i, r. split; [|assumption]. destruct H as [H|H]; exact H.
Qed.

Lemma sim_release k p s fl sq rs :
  sim k p (mkX s fl sq rs) -> p_phase p = PhWindow ->
  sim k (sp_phase (sp_cs p (fail_flights (p_cs p))) PhDead) (mkX (finish s) true sq rs).
Proof.
  intros M Ph. pose proof (m_phase k p _ M) as H. rewrite Ph in H. cbn [x_s] in H. destruct H as (R&Sh&L).
  assert (I' : inv (finish s)) by (apply inv_run, (m_inv k p _ M)). unfold finish in *.
  pose proof (m_kind k p _ M) as K. cbn [x_s] in K.
  rewrite finish_eq in * by (rewrite ?K; assumption).
  pose proof (m_sub k p _ M) as Sb. pose proof (m_cs k p _ M) as Cs.
  destruct M. cbn [x_s x_faulted x_subq x_resid] in *.
  constructor; fields; try assumption.
  - reflexivity.
  - now rewrite Sb, Ph.
  - auto.
  - intros c. rewrite pget_fail_flights.
    change (stof (set_rd (drain_all s) RDead) c) with (stof (drain_all s) c).
    apply (crel_dead _ _ (stof s c)); [rewrite <- Ph; apply Cs | |].
    + rewrite stof_drain. destruct (has_caller (s_pending s) c); auto.
    + intros i. apply (dead_no_waiter _ c i I'). now left.
Qed.

Lemma sim_fault k p x :
  (k_sub k = true -> k_kind k = KWs) ->
  sim k p x -> p_phase p = PhLive ->
  sim k (sp_phase (sp_cs p (fail_flights (p_cs p))) PhDead) (exec_event x EFault).
Proof.
  intros Hk M Ph. pose proof (sim_fault_park k p x Hk M Ph) as M1.
  cbn [exec_event] in *. unfold on_s in M1. generalize dependent (fault_to_shutdown (x_s x)). intros s' M1.
  exact (sim_release k _ s' _ _ _ M1 eq_refl).
Qed.

Theorem sim_step k p x e p' :
  (k_sub k = true -> k_kind k = KWs) ->
  sim k p x -> spec_step k p e = Some p' -> sim k p' (exec_event x e).
Proof.
  intros Hk M Hs. destruct e as [c tmo|c|c|c|c|c|c| |c|c|c| | |c| | | |c].
  - exact (sim_start k p x c true p' p' M Hs (sp_like_refl p')).
  - cbn [spec_step] in Hs. destruct (sp_start (k_n k) p c false None) as [p0|] eqn:H0; [|discriminate].
    inversion Hs; subst p'. apply (sim_start k p x c false p0 _ M H0).
    destruct (live p); [|apply sp_like_refl]. unfold sp_like. cbn. tauto.
  - apply (sim_expire k p x c _ p' M Hs). now left.
  - apply (sim_expire_raced k p x c); auto.
  - apply (sim_expire_raced k p x c); auto.
  - apply (sim_expire_raced k p x c); auto.
  - now apply (sim_respond k p).
  - cbn [spec_step] in Hs. destruct (live p) eqn:H; [|discriminate]. inversion Hs; subst p'.
    apply sim_unknown; [assumption | now apply live_phase].
  - now apply (sim_cancel k p).
  - apply (sim_cancel_raced k p x c); auto.
  - apply (sim_cancel_raced k p x c); auto.
  - now apply (sim_notify k p).
  - now apply (sim_query k p).
  - now apply (sim_stall k p).
  - cbn [spec_step] in Hs. destruct (live p) eqn:H; [|discriminate]. inversion Hs; subst p'.
    apply sim_fault; [assumption | assumption | now apply live_phase].
  - cbn [spec_step] in Hs. destruct (live p) eqn:H; [|discriminate]. inversion Hs; subst p'.
    apply sim_fault_park; [assumption | assumption | now apply live_phase].
  - cbn [spec_step] in Hs. destruct (p_phase p) eqn:Ph; try discriminate. inversion Hs; subst p'.
    destruct x as [s fl sq rs]. now apply (sim_release k p s fl sq rs).
  - now apply (sim_probe k p).
Qed.

Lemma sim_run k p x l p' :
  (k_sub k = true -> k_kind k = KWs) ->
  sim k p x -> spec_run k p l = Some p' -> sim k p' (fold_left exec_event l x).
Proof.
  intros Hk. revert p x. induction l as [|e l IH]; intros p x M Hs; cbn [spec_run fold_left] in *.
  - inversion Hs; subst. exact M.
  - destruct (spec_step k p e) as [p1|] eqn:E; [|discriminate]. apply (IH p1); [|assumption].
    now apply (sim_step k p x e p1).
Qed.

Lemma sim_init k : (k_sub k = true -> k_kind k = KWs) -> sim k sp0 (x0 k).
Proof.
  intros Hk. unfold x0. destruct (k_sub k) eqn:Ks.
  - constructor; cbn; try reflexivity.
    + apply (inv_do_step (init (k_kind k)) Subscribe), inv_init.
    + unfold sub_of. now rewrite Ks.
    + repeat split; auto.
  - constructor; cbn; try reflexivity.
    + apply inv_init.
    + unfold sub_of. now rewrite Ks.
    + repeat split; auto.
Qed.

Lemma oclass_eqb_refl a : oclass_eqb a a = true.
Proof. destruct a; reflexivity. Qed.

Lemma existsb_in a l : In a l -> existsb (oclass_eqb a) l = true.
Proof. intros H. apply existsb_exists. exists a. split; [assumption | apply oclass_eqb_refl]. Qed.

Lemma osub_eqb_refl a : osub_eqb a a = true.
Proof. destruct a; reflexivity. Qed.

Lemma list_eqb_refl {A} (eqb : A -> A -> bool) (l : list A) : (forall a, eqb a a = true) -> list_eqb eqb l l = true.
Proof. intros H. induction l as [|a l IH]; [reflexivity|]. cbn [list_eqb]. now rewrite H, IH. Qed.

Lemma class_allowed k p x c :
  sim k p x -> p_phase p <> PhWindow ->
  existsb (oclass_eqb (class_of (x_faulted x) (stof (x_s x) c))) (allowed_of (pget (p_cs p) c)) = true.
Proof.
  intros M Ph. pose proof (m_cs k p x M c) as C. pose proof (m_faulted k p x M) as F.
  destruct (pget (p_cs p) c) as [|kn|kn l]; cbn in C |- *.
  - rewrite C. reflexivity.
  - destruct (p_phase p) eqn:E; [| congruence |].
    + rewrite F. destruct C as [[i H]|[(_&_&_&i&H)|(_&H&_)]]; [rewrite H; reflexivity | rewrite H; reflexivity | discriminate].
    + pose proof (m_phase k p x M) as H. rewrite E in H. destruct H as (R&_).
      destruct C as [[i H]|[(_&H&_)|(_&H&_)]]; [|discriminate|discriminate].
      exfalso. apply (dead_no_waiter (x_s x) c i (m_inv k p x M) (or_introl R) H).
  - destruct C as (i&r&H&Hin). rewrite H. apply existsb_in. destruct r; exact Hin.
Qed.

Lemma res_ok_map k p x cl :
  sim k p x -> p_phase p <> PhWindow ->
  res_ok (p_cs p) cl (map (fun c => class_of (x_faulted x) (stof (x_s x) c)) cl) = true.
Proof.
  intros M Ph. induction cl as [|c cl IH]; [reflexivity|]. cbn [map res_ok].
  now rewrite (class_allowed k p x c M Ph), IH.
Qed.

Theorem ok_model_C06 : forall k, c06_wf k = true -> ok_C06 k (model_C06 k) = true.
Proof.
  intros k _. unfold ok_C06.
  destruct (spec_final k) as [p|] eqn:SF; [|reflexivity].
  unfold spec_final in SF.
  destruct (k_sub k && negb (is_ws (k_kind k))) eqn:Hk0; [discriminate|].
  assert (Hk : k_sub k = true -> k_kind k = KWs).
  { intros Ks. rewrite Ks in Hk0. destruct (k_kind k); cbn in Hk0; congruence. }
  destruct (spec_run k sp0 (k_script k)) as [p1|] eqn:SR; [|discriminate].
  assert (Ph : p_phase p1 <> PhWindow /\ p = p1).
  { destruct (p_phase p1) eqn:E; inversion SF; subst; split; congruence. }
  destruct Ph as [Ph ->].
  pose proof (sim_run k sp0 (x0 k) (k_script k) p1 Hk (sim_init k Hk) SR) as M.
  unfold model_C06. set (x := fold_left exec_event (k_script k) (x0 k)) in *.
  unfold obs_of. cbn [o_res o_sub o_subq o_nn o_resid].
  rewrite (res_ok_map k p1 x _ M Ph).
  rewrite (m_sub k p1 x M), (m_subq k p1 x M), (m_nn k p1 x M), (m_resid k p1 x M).
  rewrite N.eqb_refl, (list_eqb_refl osub_eqb _ osub_eqb_refl).
  rewrite (list_eqb_refl Bool.eqb _ Bool.eqb_reflx).
  cbn [andb]. rewrite !andb_true_r.
  unfold sub_of, live. destruct (k_sub k); [|reflexivity].
  destruct (p_phase p1); [reflexivity | congruence | reflexivity].
Qed.
