(** The renderings of the SVS download path and of TrailerHold that bin/rs2v regenerates from
    /repo/src/value_stream.rs (Gen/SvsGen.v) are the hand-written models (Model/Svs.v, property C09;
    Model/SvsCommit.v, property C10).  The renderings thread the channel / the inner writer with a
    budget of operations that succeed; the models have no failing send or write.  [send_chunk],
    [flush_remaining], [write] and TrailerHold's [write] are characterised for every budget (a failed
    send / inner write is passed on as [Err] and nothing further is attempted); the equalities with
    the models are the case of the unlimited budget.  [produce] is stated for that case only: once
    the receiver is gone nothing it does can be observed. *)
From RepeV Require Import Model.SvsCommit.
From RepeV Require Import Model.Svs Base.GenSvsPrelude Gen.SvsGen.
From RepeV Require Export Proofs.GenAgreeBase.
From Coq Require Import Lia.

Local Open Scope N_scope.

(** the receiver outlives the producer: every send succeeds *)
Definition live (c : tx_chan) : Prop := tx_left c = None.
Definition sent_more (c : tx_chan) (ms : list msg) : tx_chan := mkTx (tx_sent c ++ ms) (tx_left c).
Definition wwrites (ops : list wop) : list (list byte) :=
  flat_map (fun o => match o with WWrite b => [b] | WFlush => [] end) ops.
(** [k] steps of the writer oracle (1 without compression; 3 with: the encoder's constructor,
    the body writer on the encoder, [finish]): the writes that reach the sink, whether a step
    failed (the later steps are then not run), the rest of the script *)
Fixpoint steps_run (k : nat) (script : list wstep) : list (list byte) * bool * list wstep :=
  match k with
  | O => ([], false, script)
  | S k' =>
      match script with
      | [] => steps_run k' []
      | st :: rest =>
          match ws_res st with
          | Some _ => (wwrites (ws_ops st), true, rest)
          | None => let '(ws, f, r) := steps_run k' rest in (wwrites (ws_ops st) ++ ws, f, r)
          end
      end
  end.
Definition steps_of (c : compression) : nat := match c with CoNone => 1 | CoZstd => 3 end.
(** [Result<(Vec<u8>, bool), String>] of Session::pull *)
Definition pulled_res (p : pulled) : result (list byte * bool) text :=
  match p with PChunk c l => ROk (c, l) | PErr => RErr TOpaque end.
Definition store_entry (m : list (N * session)) (id : N) (t : table) : list (N * session) :=
  match t with Some s => m_put m id s | None => m_del m id end.

Lemma sink_eta s : mkSink (k_buf s) (k_chunk_bytes s) = s.
Proof. destruct s; reflexivity. Qed.
Lemma session_eta s : mkSession (s_rx s) (s_look s) (s_done s) = s.
Proof. destruct s; reflexivity. Qed.
Lemma len_n_length {A} (l : list A) : len_n l = N.of_nat (length l).
Proof. reflexivity. Qed.
Lemma is_empty_nil {A} (l : list A) : list_is_empty l = match l with [] => true | _ => false end.
Proof. destruct l; reflexivity. Qed.
Lemma is_empty_len {A} (l : list A) : list_is_empty l = (length l =? 0)%nat.
Proof. destruct l; reflexivity. Qed.

(** [len_n l] is convertible with [N.of_nat (length l)]: the renderings' comparisons, checked
    subtractions and slices are the ones on [nat] *)
Lemma leb_of_nat a b : (N.of_nat a <=? N.of_nat b) = (a <=? b)%nat.
Proof. lia. Qed.
Lemma ltb_of_nat a b : (N.of_nat a <? N.of_nat b) = (a <? b)%nat.
Proof. lia. Qed.
Lemma pos_of_lt a n : (a < n)%nat -> (0 < n)%nat.
Proof. apply Nat.le_lt_trans, Nat.le_0_l. Qed.
Lemma sub64_of_nat a b : (b <= a)%nat -> sub64 (N.of_nat a) (N.of_nat b) = Ok (N.of_nat (a - b)).
Proof. intros H. unfold sub64. rewrite leb_of_nat, (proj2 (Nat.leb_le b a) H). f_equal. lia. Qed.
Lemma slice_suffix {A} (l : list A) (k : nat) : (k <= length l)%nat -> slice_chk l (N.of_nat k) (N.of_nat (length l)) = Ok (skipn k l).
Proof.
  intros H. unfold slice_chk. rewrite !leb_of_nat, Nat.leb_refl, (proj2 (Nat.leb_le _ _) H).
  unfold slice. rewrite !Nat2N.id, firstn_all2; [reflexivity|]. rewrite skipn_length. apply Nat.le_refl.
Qed.
Lemma drain_prefix {A} (l : list A) (k : nat) : (k <= length l)%nat -> drain_chk l (N.of_nat k) = Ok (skipn k l).
Proof. intros H. unfold drain_chk, len_n. rewrite leb_of_nat, (proj2 (Nat.leb_le _ _) H), Nat2N.id. reflexivity. Qed.

Lemma m_get_del {V} (m : list (N * V)) k k' : m_get (m_del m k) k' = if k' =? k then None else m_get m k'.
Proof.
  induction m as [|[k0 v0] m IH]; cbn [m_del m_get]; [now destruct (k' =? k)|].
  destruct (N.eqb_spec k0 k) as [E|E]; cbn [m_get]; rewrite IH.
  - subst k0. rewrite (N.eqb_sym k k'). now destruct (k' =? k).
  - destruct (N.eqb_spec k' k) as [E'|E']; [|reflexivity]. subst k'. now rewrite (proj2 (N.eqb_neq k0 k) E).
Qed.
Lemma m_get_put {V} (m : list (N * V)) k v k' :
  m_get (m_put m k v) k' = if k' =? k then match m_get m k with Some _ => Some v | None => None end else m_get m k'.
Proof.
  induction m as [|[k0 v0] m IH]; cbn [m_put m_get]; [now destruct (k' =? k)|].
  destruct (N.eqb_spec k0 k) as [E|E]; cbn [m_get]; rewrite ?IH.
  - subst k0. rewrite (N.eqb_sym k k'). now destruct (k' =? k).
  - destruct (N.eqb_spec k' k) as [E'|E']; [|reflexivity]. subst k'. now rewrite (proj2 (N.eqb_neq k0 k) E).
Qed.
Lemma m_del_absent {V} (m : list (N * V)) k : m_get m k = None -> m_del m k = m.
Proof. induction m as [|[k0 v0] m IH]; cbn [m_del m_get]; [reflexivity|]. destruct (k0 =? k); [discriminate|]. intros H. now rewrite IH. Qed.
Lemma m_del_put {V} (m : list (N * V)) k v : m_del (m_put m k v) k = m_del m k.
Proof. induction m as [|[k0 v0] m IH]; cbn [m_del m_put]; [reflexivity|]. destruct (k0 =? k) eqn:E; cbn [m_del]; rewrite E; [reflexivity|]. now rewrite IH. Qed.

(** [send_all c ms] is [c] after trying to send [ms] in order (what fits the budget is sent, the rest
    is lost), [fits c k] says that [k] more sends succeed *)
Definition send_all (c : tx_chan) (ms : list msg) : tx_chan :=
  match tx_left c with
  | None => mkTx (tx_sent c ++ ms) None
  | Some k => mkTx (tx_sent c ++ firstn k ms) (Some (k - length ms)%nat)
  end.
Definition fits (c : tx_chan) (k : nat) : bool := match tx_left c with None => true | Some b => (k <=? b)%nat end.

Lemma send_all_live c ms : live c -> send_all c ms = sent_more c ms.
Proof. unfold live, send_all, sent_more. now intros ->. Qed.
Lemma fits_live c k : live c -> fits c k = true.
Proof. unfold live, fits. now intros ->. Qed.
Lemma fits_0 c : fits c 0 = true.
Proof. unfold fits. destruct (tx_left c); reflexivity. Qed.
Lemma send_all_nil c : send_all c [] = c.
Proof. destruct c as [s [k|]]; unfold send_all; cbn [tx_left tx_sent length]; rewrite ?firstn_nil, app_nil_r, ?Nat.sub_0_r; reflexivity. Qed.
Lemma tx_send_all c m : tx_send c m = (if fits c 1 then ROk tt else RErr tt, send_all c [m]).
Proof.
  destruct c as [s [[|k]|]]; unfold tx_send, fits, send_all; cbn [tx_left tx_sent length firstn Nat.leb Nat.sub]; rewrite ?firstn_nil, ?app_nil_r, ?Nat.sub_0_r; reflexivity.
Qed.
Lemma tx_send_live c m : live c -> tx_send c m = (ROk tt, sent_more c [m]).
Proof. intros H. now rewrite tx_send_all, fits_live, send_all_live. Qed.
Lemma send_all_app c a b : send_all (send_all c a) b = send_all c (a ++ b).
Proof.
  destruct c as [s [k|]]; unfold send_all; cbn [tx_left tx_sent]; [|now rewrite app_assoc].
  rewrite firstn_app, app_length, <- app_assoc. f_equal. f_equal. lia.
Qed.
Lemma fits_S c m k : fits c (S k) = fits c 1 && fits (send_all c [m]) k.
Proof. destruct c as [s [b|]]; unfold fits, send_all; cbn [tx_left length]; [lia|reflexivity]. Qed.
Lemma send_all_cut c a b : fits c (length a) = false -> send_all c (a ++ b) = send_all c a.
Proof.
  destruct c as [s [k|]]; unfold fits, send_all; cbn [tx_left tx_sent]; [|discriminate]. intros H.
  rewrite firstn_app, app_length. replace (k - length a)%nat with O by lia. rewrite firstn_O, app_nil_r. f_equal. f_equal. lia.
Qed.

Lemma sent_more_more c a b : sent_more (sent_more c a) b = sent_more c (a ++ b).
Proof. unfold sent_more. cbn [tx_sent tx_left]. now rewrite app_assoc. Qed.
Lemma sent_more_nil c : sent_more c [] = c.
Proof. destruct c as [s l]. unfold sent_more. cbn [tx_sent tx_left]. now rewrite app_nil_r. Qed.

Lemma sink_new_agrees : agrees2 gen_sink_new (fun ch n => Ok (mkSink [] n, ch)).
Proof. gen_start. all: intros; reflexivity. Qed.

Lemma sink_send_chunk_agrees :
  agrees2 gen_sink_send_chunk (fun ch s =>
    Ok (res_map_err (fst (tx_send ch (MChunk (k_buf s)))) IoBrokenPipe, mkSink [] (k_chunk_bytes s),
        snd (tx_send ch (MChunk (k_buf s))))).
Proof. gen_start. all: intros ch s; destruct s as [buf n]; cbn [k_buf k_chunk_bytes set_k_buf]; destruct (tx_send ch (MChunk buf)); reflexivity. Qed.

Lemma sink_flush_remaining_any_agrees :
  agrees2 gen_sink_flush_remaining (fun ch s =>
    let tail := match k_buf s with [] => [] | _ :: _ => [MChunk (k_buf s)] end in
    Ok (if fits ch (length tail) then ROk tt else RErr IoBrokenPipe, mkSink [] (k_chunk_bytes s), send_all ch tail)).
Proof.
  pose proof sink_send_chunk_agrees as Hs. gen_start.
  all: intros ch s; callee Hs; rewrite ?Hs, ?is_empty_nil, ?tx_send_all; destruct s as [buf n]; cbn [k_buf k_chunk_bytes fst snd res_map_err].
  all: destruct buf; cbn [length]; [rewrite send_all_nil, fits_0; reflexivity|].
  all: destruct (fits ch 1); reflexivity.
Qed.
Lemma sink_flush_remaining_agrees :
  match gen_sink_flush_remaining with
  | Some f => forall ch s, live ch ->
      f ch s = Ok (ROk tt, mkSink [] (k_chunk_bytes s),
                   sent_more ch (match k_buf s with [] => [] | _ :: _ => [MChunk (k_buf s)] end))
  | None => True
  end.
Proof.
  generalize sink_flush_remaining_any_agrees. destruct gen_sink_flush_remaining as [f|]; [|trivial].
  intros H ch s Hl. rewrite H. cbv zeta. now rewrite fits_live, send_all_live by exact Hl.
Qed.

(** an intermediate [flush] never emits a short chunk *)
Definition flush_spec (F : tx_chan -> sink -> outcome (result unit io_error * sink * tx_chan)) : Prop :=
  forall ch s, F ch s = Ok (ROk tt, s, ch).
Lemma sink_flush_agrees : match gen_sink_flush with Some f => flush_spec f | None => True end.
Proof. gen_start. all: intros ch s; reflexivity. Qed.

Lemma loop_chk_S {St R} f (step : St -> outcome (lflow St R)) s :
  loop_chk (S f) step s =
  (do x <- step s; match x with LNext s' => loop_chk f step s' | LStop s' => Ok (LFell s') | LReturn r => Ok (LReturned r) end).
Proof. reflexivity. Qed.

Lemma sink_write_cons f n b x d :
  sink_write (S f) n b (x :: d) =
  let tk := Nat.min (n - length b) (length (x :: d)) in
  let b' := b ++ firstn tk (x :: d) in
  if (n <=? length b')%nat
  then (b' :: fst (sink_write f n [] (skipn tk (x :: d))), snd (sink_write f n [] (skipn tk (x :: d))))
  else sink_write f n b' (skipn tk (x :: d)).
Proof. cbn [sink_write]. cbv zeta. destruct (_ <=? _)%nat; [destruct (sink_write f n [] _)|]; reflexivity. Qed.

Lemma sink_write_tail n f : forall data buf, (length buf < n)%nat -> (length (snd (sink_write f n buf data)) < n)%nat.
Proof.
  induction f as [|f IH]; intros [|b data] buf Hb; try exact Hb. rewrite sink_write_cons. cbv zeta.
  destruct (_ <=? _)%nat eqn:E; apply IH; [|apply Nat.leb_gt, E]. exact (pos_of_lt _ _ Hb).
Qed.

(** one iteration of the loop of [write], from a state that satisfies the sink's invariant ([buf]
    is shorter than a chunk) *)
Definition write_step_any (n : nat) (d b : list byte) (c : tx_chan) : lflow (list byte * sink * tx_chan) (result N io_error * sink * tx_chan) :=
  match d with
  | [] => LStop (d, mkSink b (N.of_nat n), c)
  | _ :: _ =>
      let tk := Nat.min (n - length b) (length d) in
      let b' := b ++ firstn tk d in
      if (n <=? length b')%nat then
        if fits c 1 then LNext (skipn tk d, mkSink [] (N.of_nat n), send_all c [MChunk b'])
        else LReturn (RErr IoBrokenPipe, mkSink [] (N.of_nat n), send_all c [MChunk b'])
      else LNext (skipn tk d, mkSink b' (N.of_nat n), c)
  end.

(** how the loop ends once [sink_write] has cut the chunks [fst r] and left [snd r] in the buffer *)
Definition write_end (n : nat) (c : tx_chan) (r : list chunk * list byte) : lend (list byte * sink * tx_chan) (result N io_error * sink * tx_chan) :=
  if fits c (length (fst r))
  then LFell ([], mkSink (snd r) (N.of_nat n), send_all c (map MChunk (fst r)))
  else LReturned (RErr IoBrokenPipe, mkSink [] (N.of_nat n), send_all c (map MChunk (fst r))).

Lemma write_end_cons n c x r :
  write_end n c (x :: fst r, snd r) =
  if fits c 1 then write_end n (send_all c [MChunk x]) r
  else LReturned (RErr IoBrokenPipe, mkSink [] (N.of_nat n), send_all c [MChunk x]).
Proof.
  unfold write_end. cbn [fst snd map length]. rewrite (fits_S c (MChunk x)).
  destruct (fits c 1) eqn:Ef; cbn [andb]; [now rewrite send_all_app|].
  do 2 f_equal. exact (send_all_cut c [MChunk x] _ Ef).
Qed.

(** the loop and [sink_write] consume their fuel in step: an iteration on data that is not empty
    takes at least one byte, so [length d] iterations and the one that sees the empty slice suffice *)
Lemma write_loop_any n step :
  (forall d b c, (length b < n)%nat -> step (d, mkSink b (N.of_nat n), c) = Ok (write_step_any n d b c)) ->
  forall f d b c, (length d <= f)%nat -> (length b < n)%nat ->
    loop_chk (S f) step (d, mkSink b (N.of_nat n), c) = Ok (write_end n c (sink_write (S f) n b d)).
Proof.
  intros Hstep. induction f as [|f IH]; intros [|x d] b c Hd Hb; rewrite loop_chk_S, Hstep by exact Hb.
  1, 3: unfold write_end; cbn [write_step_any bind sink_write fst snd map length]; now rewrite fits_0, send_all_nil.
  - destruct (Nat.nle_succ_0 _ Hd).
  - rewrite sink_write_cons. cbn [write_step_any]. set (dd := x :: d) in *.
    set (tk := Nat.min (n - length b) (length dd)). cbv zeta.
    assert (Hs : (length (skipn tk dd) <= f)%nat) by (clear IH Hstep; rewrite skipn_length; subst tk dd; cbn [length] in *; lia).
    destruct (n <=? length (b ++ firstn tk dd))%nat eqn:E.
    + rewrite write_end_cons. destruct (fits c 1); cbn [bind]; [|reflexivity].
      apply IH; [exact Hs|exact (pos_of_lt _ _ Hb)].
    + cbn [bind]. apply IH; [exact Hs|]. apply Nat.leb_gt, E.
Qed.

Definition write_spec (W : tx_chan -> sink -> list byte -> outcome (result N io_error * sink * tx_chan)) : Prop :=
  forall ch s data n, k_chunk_bytes s = N.of_nat n -> (0 < n)%nat -> (length (k_buf s) < n)%nat ->
    let cs := fst (sink_write (S (length data)) n (k_buf s) data) in
    W ch s data =
    if fits ch (length cs)
    then Ok (ROk (len_n data), mkSink (snd (sink_write (S (length data)) n (k_buf s) data)) (N.of_nat n), send_all ch (map MChunk cs))
    else Ok (RErr IoBrokenPipe, mkSink [] (N.of_nat n), send_all ch (map MChunk cs)).
Lemma sink_write_any_agrees : match gen_sink_write with Some f => write_spec f | None => True end.
Proof.
  pose proof sink_send_chunk_agrees as Hs. gen_start.
  all: unfold write_spec; intros ch s data n Hn Hpos Hb; callee Hs; destruct s as [buf nn]; cbn [k_buf k_chunk_bytes] in *; subst nn.
  all: match goal with |- context [loop_chk _ ?st _] => set (stp := st) end.
  all: assert (Hstep : forall d b c, (length b < n)%nat -> stp (d, mkSink b (N.of_nat n), c) = Ok (write_step_any n d b c))
    by (intros d b c Hbb; unfold stp; destruct d as [|x d]; [reflexivity|]; cbn [write_step_any]; set (dd := x :: d) in *;
        cbn [k_buf k_chunk_bytes set_k_buf]; replace (negb (list_is_empty dd)) with true by reflexivity; cbv iota zeta;
        unfold len_n; rewrite sub64_of_nat by apply Nat.lt_le_incl, Hbb; cbn [bind]; rewrite <- Nat2N.inj_min;
        rewrite slice_prefix, slice_suffix by apply Nat.le_min_r; cbn [bind]; rewrite leb_of_nat;
        destruct (n <=? _)%nat; [rewrite Hs, tx_send_all; cbn [k_buf k_chunk_bytes fst snd]; destruct (fits c 1)|]; reflexivity).
  all: cbv zeta; rewrite (write_loop_any n stp Hstep) by (exact Hb || apply Nat.le_refl).
  all: unfold write_end; destruct (fits ch _); reflexivity.
Qed.

Definition write_live_spec (W : tx_chan -> sink -> list byte -> outcome (result N io_error * sink * tx_chan)) : Prop :=
  forall ch s data n, live ch -> k_chunk_bytes s = N.of_nat n -> (0 < n)%nat -> (length (k_buf s) < n)%nat ->
    W ch s data = Ok (ROk (len_n data), mkSink (snd (sink_write (S (length data)) n (k_buf s) data)) (N.of_nat n),
                      sent_more ch (map MChunk (fst (sink_write (S (length data)) n (k_buf s) data)))).
Lemma write_spec_live W : write_spec W -> write_live_spec W.
Proof. intros H ch s data n Hl Hn Hpos Hb. rewrite (H ch s data n Hn Hpos Hb). cbv zeta. now rewrite fits_live, send_all_live by exact Hl. Qed.
Lemma sink_write_agrees : match gen_sink_write with Some f => write_live_spec f | None => True end.
Proof. generalize sink_write_any_agrees. destruct gen_sink_write as [f|]; [apply write_spec_live|trivial]. Qed.

Lemma sink_writes_tail n ws : forall buf, (length buf < n)%nat -> (length (snd (sink_writes n buf ws)) < n)%nat.
Proof.
  induction ws as [|w ws IH]; intros buf Hb; [exact Hb|]. cbn [sink_writes].
  pose proof (sink_write_tail n (S (length w)) w buf Hb) as H1. destruct (sink_write (S (length w)) n buf w) as [cs b]. cbn [snd] in H1.
  specialize (IH b H1). destruct (sink_writes n b ws). exact IH.
Qed.

Lemma sink_writes_app n a : forall c buf,
  sink_writes n buf (a ++ c) =
  (fst (sink_writes n buf a) ++ fst (sink_writes n (snd (sink_writes n buf a)) c), snd (sink_writes n (snd (sink_writes n buf a)) c)).
Proof.
  induction a as [|w a IH]; intros c buf; cbn [app sink_writes fst snd]; [destruct (sink_writes n buf c); reflexivity|].
  destruct (sink_write (S (length w)) n buf w) as [cs b]. rewrite IH.
  destruct (sink_writes n b a) as [cs1 b1]. cbn [fst snd]. destruct (sink_writes n b1 c) as [cs2 b2]. cbn [fst snd]. now rewrite app_assoc.
Qed.

Lemma run_wops_live n W F : write_live_spec W -> flush_spec F ->
  forall ops ch b, live ch -> (length b < n)%nat ->
    run_wops W F ops ch (mkSink b (N.of_nat n)) =
    Ok (ROk tt, mkSink (snd (sink_writes n b (wwrites ops))) (N.of_nat n), sent_more ch (map MChunk (fst (sink_writes n b (wwrites ops))))).
Proof.
  intros HW HF. induction ops as [|o ops IH]; intros ch b Hl Hb.
  - cbn [run_wops wwrites flat_map sink_writes fst snd map]. now rewrite sent_more_nil.
  - destruct o as [d|]; cbn [run_wops wwrites flat_map app].
    + rewrite (HW ch (mkSink b (N.of_nat n)) d n Hl eq_refl (pos_of_lt _ _ Hb) Hb).
      cbn [bind k_buf]. fold (wwrites ops). cbn [sink_writes].
      pose proof (sink_write_tail n (S (length d)) d b Hb) as H1.
      destruct (sink_write (S (length d)) n b d) as [cs b1]. cbn [fst snd] in *.
      rewrite IH by (trivial; exact Hl).
      destruct (sink_writes n b1 (wwrites ops)) as [cs2 b2]. cbn [fst snd]. now rewrite sent_more_more, map_app.
    + rewrite HF. cbn [bind]. fold (wwrites ops). apply IH; assumption.
Qed.

Definition sink_after (n : nat) (ws : list (list byte)) : sink := mkSink (snd (sink_writes n [] ws)) (N.of_nat n).
Definition chan_after (n : nat) (ch : tx_chan) (ws : list (list byte)) : tx_chan :=
  sent_more ch (map MChunk (fst (sink_writes n [] ws))).

Lemma after_nil n ch : (mkSink [] (N.of_nat n), ch) = (sink_after n [], chan_after n ch []).
Proof. unfold chan_after. cbn [sink_writes fst map]. now rewrite sent_more_nil. Qed.

(** the step the oracle takes next: an exhausted script is a step that writes nothing and succeeds *)
Definition next_step (script : list wstep) : wstep := hd (mkWStep [] None) script.

Lemma writer_step_after n W F ch : (0 < n)%nat -> live ch -> write_live_spec W -> flush_spec F ->
  forall script ws,
    let st := next_step script in
    writer_step W F script (chan_after n ch ws) (sink_after n ws) =
    Ok (match ws_res st with Some e => RErr e | None => ROk tt end,
        sink_after n (ws ++ wwrites (ws_ops st)), chan_after n ch (ws ++ wwrites (ws_ops st)), tl script).
Proof.
  intros Hn Hl HW HF script ws. destruct script as [|st rest]; cbn [next_step hd tl ws_ops ws_res wwrites flat_map writer_step].
  - now rewrite app_nil_r.
  - unfold sink_after, chan_after. rewrite (run_wops_live n W F HW HF) by (exact Hl || apply sink_writes_tail, Hn).
    cbn [bind]. rewrite sink_writes_app, sent_more_more, <- map_app. reflexivity.
Qed.

Lemma steps_run_S k script :
  steps_run (S k) script =
  let st := next_step script in
  match ws_res st with
  | Some _ => (wwrites (ws_ops st), true, tl script)
  | None => let '(ws, f, r) := steps_run k (tl script) in (wwrites (ws_ops st) ++ ws, f, r)
  end.
Proof. destruct script as [|st rest]; [|reflexivity]. cbn [steps_run next_step hd tl ws_res]. now destruct (steps_run k []) as [[ws f] r]. Qed.

Lemma sent_produce_ok n ch ws :
  sent_more (sent_more (chan_after n ch ws)
               (match k_buf (sink_after n ws) with [] => [] | _ :: _ => [MChunk (k_buf (sink_after n ws))] end)) [MEnd] =
  sent_more ch (produce n ws false).
Proof.
  unfold chan_after, sink_after, produce. destruct (sink_writes n [] ws) as [cs [|x t]]; cbn [fst snd k_buf];
    rewrite !sent_more_more; reflexivity.
Qed.
Lemma sent_produce_failed n ch ws : sent_more (chan_after n ch ws) [MFail] = sent_more ch (produce n ws true).
Proof. unfold chan_after, produce. destruct (sink_writes n [] ws) as [cs t]. now rewrite sent_more_more. Qed.

Lemma produce_agrees :
  match gen_produce with
  | Some f => forall ch script opts n, live ch -> o_chunk_bytes opts = N.of_nat n -> (0 < n)%nat ->
      f ch script opts =
      let '(ws, failed, rest) := steps_run (steps_of (o_compression opts)) script in
      Ok (tt, sent_more ch (produce n ws failed), rest)
  | None => True
  end.
Proof.
  pose proof sink_new_agrees as Hnew. pose proof sink_write_agrees as Hw. pose proof sink_flush_agrees as Hf.
  pose proof sink_flush_remaining_agrees as Hr. gen_start.
  all: intros ch script opts n Hl Hn Hpos; callee Hnew; callee Hw; callee Hf; callee Hr.
  all: match goal with |- context [writer_step ?W ?F _ _ _] =>
         pose proof (writer_step_after n W F ch Hpos Hl Hw Hf) as HS end.
  all: cbv zeta in HS; rewrite Hnew, Hn, after_nil; cbn [bind]; destruct (o_compression opts); cbn [steps_of].
  (* [steps_run] is unfolded into its tree of cases with the rendering set aside, so that only the
     right-hand side is rewritten; then the rendering takes the oracle's steps one by one, each
     failing or going on *)
  all: match goal with |- ?l = _ => set (lhs := l) end; rewrite !steps_run_S; cbv zeta; cbn [steps_run]; subst lhs.
  all: repeat (rewrite HS; destruct (ws_res (next_step _)); cbv beta iota delta [bind try_or]).
  all: rewrite ?Hr by exact Hl; cbn [bind].
  all: rewrite tx_send_live by exact Hl.
  all: rewrite ?sent_produce_ok, ?sent_produce_failed, <- ?app_assoc, ?app_nil_r; reflexivity.
Qed.

Lemma session_recv_agrees :
  agrees1 gen_session_recv (fun s => Ok (fst (recv (s_rx s)), mkSession (snd (recv (s_rx s))) (s_look s) (s_done s))).
Proof. gen_start. all: intros s; destruct s as [rx look done]; destruct rx as [|m rx]; reflexivity. Qed.

Lemma session_pull_agrees :
  agrees1 gen_session_pull (fun s => Ok (pulled_res (fst (session_pull s)), snd (session_pull s))).
Proof.
  pose proof session_recv_agrees as Hr. gen_start.
  all: intros s; callee Hr; destruct s as [rx look done]; unfold session_pull, pull_second; cbn [s_rx s_look s_done set_s_look].
  all: destruct look as [c|]; rewrite ?Hr; cbn [bind s_rx s_look s_done set_s_look fst snd].
  all: destruct rx as [|m rx]; cbn [recv fst snd]; try destruct m; cbn [pulled_res fst snd]; rewrite ?Hr; cbn [bind s_rx s_look s_done set_s_look fst snd]; try reflexivity.
  all: destruct rx as [|m rx]; cbn [recv fst snd]; try destruct m; reflexivity.
Qed.

Lemma table_new_agrees :
  match gen_table_new with
  | Some f => f = Ok (mkTable 1 [])
  | None => True
  end.
Proof. gen_start. all: reflexivity. Qed.

Lemma table_get_agrees : agrees2 gen_table_get (fun t id => Ok (m_get (tb_sessions t) id, t)).
Proof. gen_start. all: intros; reflexivity. Qed.

Lemma table_remove_agrees :
  agrees2 gen_table_remove (fun t id => Ok (tt, mkTable (tb_next_id t) (m_del (tb_sessions t) id))).
Proof. gen_start. all: intros; reflexivity. Qed.

Lemma next_handle_agrees :
  agrees2 gen_next_handle (fun decoded h =>
    match decoded with
    | RErr _ => Ok (ROk (SResp (resp_err ERRC_InvalidBody)), h)
    | ROk id =>
        let m := tb_sessions (nh_table h) in
        Ok (ROk (SResp (fst (next_handler (m_get m id)))),
            mkHandler (mkTable (tb_next_id (nh_table h)) (store_entry m id (snd (next_handler (m_get m id))))))
    end).
Proof.
  pose proof table_get_agrees as Hg. pose proof table_remove_agrees as Hd. pose proof session_pull_agrees as Hp. gen_start.
  all: intros decoded h; callee Hg; callee Hd; callee Hp; destruct h as [[nid m]]; destruct decoded as [id|e]; [|reflexivity].
  all: cbn [nh_table tb_sessions tb_next_id set_nh_table set_tb_sessions]; rewrite Hg; cbn [bind nh_table tb_sessions tb_next_id set_nh_table set_tb_sessions].
  all: unfold next_handler; destruct (m_get m id) as [s|] eqn:Eg; cbn [fst snd store_entry]; [|rewrite (m_del_absent m id Eg); reflexivity].
  all: destruct (s_done s) eqn:Ed; cbn [fst snd store_entry];
       [rewrite ?Hd; cbn [bind nh_table tb_sessions tb_next_id set_nh_table set_tb_sessions]; reflexivity|].
  all: rewrite Hp; cbn [bind nh_table tb_sessions tb_next_id set_nh_table set_tb_sessions].
  all: destruct (session_pull s) as [p s']; cbn [fst snd]; destruct p as [c [|]|]; cbn [pulled_res fst snd store_entry];
       rewrite ?Hd; cbn [bind nh_table tb_sessions tb_next_id set_nh_table set_tb_sessions set_s_done];
       rewrite ?m_del_put; reflexivity.
Qed.

Lemma cancel_handle_agrees :
  agrees2 gen_cancel_handle (fun decoded h =>
    Ok (ROk SAck, match decoded with
                  | ROk id => mkHandler (mkTable (tb_next_id (nh_table h)) (m_del (tb_sessions (nh_table h)) id))
                  | RErr _ => h
                  end)).
Proof.
  pose proof table_remove_agrees as Hd. gen_start.
  all: intros decoded h; callee Hd; destruct h as [[nid m]]; destruct decoded as [id|e]; [|reflexivity].
  all: cbn [nh_table set_nh_table]; rewrite Hd; reflexivity.
Qed.

(** what the right-hand sides of the statements above say in the model's terms *)
Lemma store_entry_same m id t : m_get (store_entry m id t) id = match m_get m id with Some _ => t | None => None end.
Proof. destruct t as [s|]; cbn [store_entry]; rewrite ?m_get_put, ?m_get_del, N.eqb_refl; [reflexivity|]. now destruct (m_get m id). Qed.
Lemma store_entry_other m id id' t : id' <> id -> m_get (store_entry m id t) id' = m_get m id'.
Proof. intros Hne. destruct t as [s|]; cbn [store_entry]; rewrite ?m_get_put, ?m_get_del, (proj2 (N.eqb_neq id' id) Hne); reflexivity. Qed.
Lemma m_del_cancel m id : m_get (m_del m id) id = cancel_handler (m_get m id).
Proof. now rewrite m_get_del, N.eqb_refl. Qed.
Lemma sink_writes_single n buf w : sink_writes n buf [w] = sink_write (S (length w)) n buf w.
Proof. cbn [sink_writes]. destruct (sink_write (S (length w)) n buf w). now rewrite app_nil_r. Qed.

Lemma hold_new_agrees : agrees2 gen_hold_new (fun inner n => Ok (mkHold inner [] n)).
Proof. gen_start. all: intros; reflexivity. Qed.

Lemma hold_into_trailer_agrees :
  match gen_hold_into_trailer with
  | Some f => forall h n, th_trailer_len h = N.of_nat n ->
      f h = Ok (if into_trailer_errors n (th_hold h) then RErr IoUnexpectedEof else ROk (th_hold h))
  | None => True
  end.
Proof.
  gen_start. all: intros h n Hn; destruct h as [inner hd tl]; cbn [th_hold th_trailer_len] in *; subst tl; unfold into_trailer_errors, len_n.
  all: rewrite ltb_of_nat; destruct (length hd <? n)%nat; reflexivity.
Qed.

Fixpoint iw_write_each (w : inner_writer) (ws : list (list byte)) : result unit io_error * inner_writer :=
  match ws with
  | [] => (ROk tt, w)
  | x :: r => match iw_write_all w x with (ROk _, w') => iw_write_each w' r | (RErr e, w') => (RErr e, w') end
  end.

Lemma iw_write_each_eq w ws :
  iw_write_each w ws =
  match iw_left w with
  | None => (ROk tt, mkInner (iw_done w ++ ws) None)
  | Some k => if (length ws <=? k)%nat then (ROk tt, mkInner (iw_done w ++ ws) (Some (k - length ws)%nat))
              else (RErr IoOther, mkInner (iw_done w ++ firstn k ws) (Some O))
  end.
Proof.
  revert w. induction ws as [|x ws IH]; intros [dn lf]; cbn [iw_write_each iw_left iw_done length].
  - destruct lf; now rewrite app_nil_r, ?Nat.sub_0_r.
  - unfold iw_write_all. cbn [iw_left iw_done].
    destruct lf as [[|k]|]; cbn [Nat.leb Nat.sub firstn]; [now rewrite app_nil_r| |]; rewrite IH; cbn [iw_left iw_done]; now rewrite <- !app_assoc.
Qed.

(** TrailerHold's [write], whatever the inner writer does.  The first inner [write_all] that fails
    ends the call with its error; the caller then abandons the pull, so what is held is left open
    ([exists hd]) *)
Lemma hold_write_any_agrees :
  match gen_hold_write with
  | Some f => forall h buf n, th_trailer_len h = N.of_nat n ->
      match iw_write_each (th_inner h) (fst (hold_write n (th_hold h) buf)) with
      | (ROk _, w) => f h buf = Ok (ROk (len_n buf), mkHold w (snd (hold_write n (th_hold h) buf)) (N.of_nat n))
      | (RErr e, w) => exists hd, f h buf = Ok (RErr e, mkHold w hd (N.of_nat n))
      end
  | None => True
  end.
Proof.
  gen_start. all: intros h buf n Hn; destruct h as [w hd tl]; cbn [th_inner th_hold th_trailer_len] in *; subst tl.
  all: unfold hold_write, len_n; cbn [th_inner th_hold th_trailer_len set_th_inner set_th_hold].
  all: rewrite leb_of_nat; destruct (Nat.leb_spec n (length buf)) as [E1|E1].
  all: try (rewrite is_empty_nil; destruct hd as [|x hd]; cbn [negb]).
  all: try (rewrite ltb_of_nat; destruct (Nat.ltb_spec n (length (hd ++ buf))) as [E2|E2]).
  all: cbn [fst snd app iw_write_each].
  (* at most two inner writes: with the arithmetic before it done, the next one stands in front on
     both sides; the proof splits on its result, and an error ends the call *)
  all: do 2 (rewrite ?sub64_of_nat by auto using Nat.lt_le_incl; cbn [bind]; rewrite ?slice_prefix by apply Nat.le_sub_l; cbn [bind];
             try (destruct (iw_write_all _ _) as [[[]|e] ?w]; cbn [try_or th_inner th_hold th_trailer_len set_th_inner set_th_hold];
                  [|eexists; reflexivity])).
  all: rewrite ?slice_suffix, ?drain_prefix by apply Nat.le_sub_l; reflexivity.
Qed.

Lemma hold_write_agrees :
  match gen_hold_write with
  | Some f => forall h buf n, iw_left (th_inner h) = None -> th_trailer_len h = N.of_nat n ->
      f h buf = Ok (ROk (len_n buf),
                    mkHold (mkInner (iw_done (th_inner h) ++ fst (hold_write n (th_hold h) buf)) None)
                           (snd (hold_write n (th_hold h) buf)) (N.of_nat n))
  | None => True
  end /\
  match gen_hold_write with
  | Some f => forall h buf n k, iw_left (th_inner h) = Some k -> th_trailer_len h = N.of_nat n ->
      let ws := fst (hold_write n (th_hold h) buf) in
      if (length ws <=? k)%nat then
        f h buf = Ok (ROk (len_n buf),
                      mkHold (mkInner (iw_done (th_inner h) ++ ws) (Some (k - length ws)%nat)) (snd (hold_write n (th_hold h) buf)) (N.of_nat n))
      else exists hd, f h buf = Ok (RErr IoOther, mkHold (mkInner (iw_done (th_inner h) ++ firstn k ws) (Some O)) hd (N.of_nat n))
  | None => True
  end.
Proof.
  generalize hold_write_any_agrees. destruct gen_hold_write as [f|]; [|now split].
  intros H. split; [intros h buf n Hl Hn|intros h buf n k Hl Hn]; specialize (H h buf n Hn); rewrite iw_write_each_eq, Hl in H.
  - exact H.
  - cbv zeta. destruct (length _ <=? k)%nat; exact H.
Qed.
