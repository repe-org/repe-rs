(** Agreement of the hand-written JSON-pointer models (Model/Json.v, Model/Registry.v: property
    C14; Model/JsonPtr.v, Model/Router.v: property C07) with the Gallina renderings that bin/rs2v
    regenerates from /repo/src/json_pointer.rs, src/registry.rs and src/server.rs on every run
    (Gen/PointerGen.v).  Every statement says that the rendering returns [Ok] of the model's
    value: the code cannot panic there (slicing, the 16-slot stack array, [count += 1]) and
    computes what the model computes.  That holds on every byte string, except where the code
    slices a [&str]: [parse_pointer], its callers [canonical_key], [parse_registration_path],
    [register_function_arc], and [relative_pointer] are stated for strings on which the cut is a
    char boundary ([utf8_cont_ok], a hypothesis on the boundary itself), which every [&str]
    grants; on other byte strings the rendering panics ([parse_pointer_boundary_panic]).  A
    function that could not be translated is [None] and its lemma degrades to [True]. *)
From RepeV Require Model.Registry Model.Router.
From RepeV Require Import Base.GenStrPrelude Gen.PointerGen.
From RepeV Require Export Proofs.GenAgreeBase.

(** a necessary condition of UTF-8 validity: no continuation byte (10xxxxxx) at the start of the
    string or right after an ASCII byte.  It is what [&pointer[1..]] needs in order not to hit
    Rust's char-boundary panic, and every [&str] satisfies it. *)
Fixpoint cont_ok_after (prev : byte) (s : str) : bool :=
  match s with
  | [] => true
  | b :: s' => negb ((prev <? 128) && (128 <=? b) && (b <? 192)) && cont_ok_after b s'
  end.
Definition utf8_cont_ok (s : str) : bool := cont_ok_after 0 s.

Definition model_res {A} (r : result A reg_error) : Registry.res A :=
  match r with ROk a => Registry.Ok a | RErr GE_InvalidPointer => Registry.Err Registry.EInvalidPointer end.
Definition omap {A B} (g : A -> B) (o : outcome A) : outcome B :=
  match o with Ok a => Ok (g a) | Err e => Err e | Panic => Panic | Abort => Abort end.
Definition opt_res {A} (o : option A) : result A unit := match o with Some a => ROk a | None => RErr tt end.

(** what [register_function_arc] is compared with: the path is parsed as a registration path; the
    root is refused; the parents of exactly these segments are ensured; the callable is stored
    under [canonical_pointer] of exactly these segments (Model/Registry.v [register_function]:
    [reg_at (obj_of root) segs None] and [fset funs (canonical_pointer segs) fid]) *)
Definition register_spec (ens : list str -> result unit reg_error) (path : str) : result reg_step reg_error :=
  match Registry.parse_registration_path path with
  | Registry.Err _ => RErr GE_InvalidPointer
  | Registry.Ok [] => RErr GE_InvalidPointer
  | Registry.Ok segs =>
      match ens segs with
      | RErr e => RErr e
      | ROk _ => ROk (RegFn (Some segs) (Some (Registry.canonical_pointer segs)))
      end
  end.

Lemma s_eqb_json a b : s_eqb a b = Json.str_eqb a b.
Proof. reflexivity. Qed.
Lemma s_eqb_jsonptr a b : s_eqb a b = JsonPtr.str_eqb a b.
Proof. reflexivity. Qed.
Lemma s_split_json c s : s_split_c c s = Json.split_on c s.
Proof. reflexivity. Qed.
Lemma s_split_jsonptr s : s_split_c 47 s = JsonPtr.split_slash s.
Proof. induction s as [|b s IH]; cbn; [reflexivity|]. now rewrite IH. Qed.
Lemma s_replace_c_json c r s : s_replace_c c r s = Json.replace1 c r s.
Proof. reflexivity. Qed.
Lemma s_replace_cc_json a b r s : s_replace_cc a b [r] s = Json.replace2 a b r s.
Proof.
  (* a hit takes two bytes: the claim for [s] and for every [x :: s] go together *)
  enough (H : s_replace_cc a b [r] s = Json.replace2 a b r s /\
              forall x, s_replace_cc a b [r] (x :: s) = Json.replace2 a b r (x :: s)) by apply H.
  induction s as [|y t [IH1 IH2]]; [split; reflexivity|]. split; [apply IH2|]. intros x.
  change (s_replace_cc a b [r] (x :: y :: t)) with
    (if (x =? a) && (y =? b) then r :: s_replace_cc a b [r] t else x :: s_replace_cc a b [r] (y :: t)).
  rewrite IH1, IH2. reflexivity.
Qed.
Lemma s_replace_cc_jsonptr a b r s : s_replace_cc a b r s = JsonPtr.replace2 a b r s.
Proof. reflexivity. Qed.
Lemma s_strip_prefix_registry p s : s_strip_prefix p s = Registry.strip_pre p s.
Proof. reflexivity. Qed.
Lemma s_strip_prefix_router p s : s_strip_prefix p s = Router.strip_prefix p s.
Proof. reflexivity. Qed.
Lemma s_trim_end_registry c s : s_trim_end_c c s = Registry.trim_end c s.
Proof. reflexivity. Qed.
Lemma s_trim_end_router s : s_trim_end_c 47 s = Router.trim_end_slashes s.
Proof. induction s as [|c s IH]; cbn [s_trim_end_c Router.trim_end_slashes]; [reflexivity|]. now rewrite IH. Qed.
Lemma root_test p : list_is_empty p || s_eqb p [47] = Registry.is_root_ptr p.
Proof. destruct p as [|c [|d r]]; cbn; rewrite ?andb_true_r, ?andb_false_r; reflexivity. Qed.
Lemma s_eqb_sym a : forall b, s_eqb a b = s_eqb b a.
Proof. induction a as [|x a IH]; intros [|y b]; cbn [s_eqb]; try reflexivity. rewrite IH, N.eqb_sym. reflexivity. Qed.

Lemma str_empty_case {B} (l : str) (x y : B) :
  match l with [] => x | _ :: _ => y end = if list_is_empty l then x else y.
Proof. destruct l; reflexivity. Qed.

Lemma agrees1_ext {A B} (g : option (A -> B)) (m m' : A -> B) :
  (forall a, m a = m' a) -> agrees1 g m -> agrees1 g m'.
Proof. intros E. destruct g; [|trivial]. intros H a. rewrite <- E. apply H. Qed.

Lemma jp_parse_agrees : agrees1 gen_jp_parse (fun p => Ok (Registry.jp_parse p)).
Proof.
  gen_start. all: intros p; destruct p as [|c rest]; [reflexivity|].
  all: cbn [list_is_empty]; cbv zeta; unfold Registry.jp_parse, s_strip_prefix_c, o_unwrap_or, Json.SLASH, Json.TILDE, Json.ZERO, Json.ONE.
  all: destruct (c =? 47); f_equal; rewrite s_split_json; apply map_ext; intros t; rewrite !s_replace_cc_json; reflexivity.
Qed.

Lemma jp_parse_models p : Registry.jp_parse p = JsonPtr.parse p.
Proof.
  destruct p as [|c rest]; [reflexivity|]. unfold Registry.jp_parse, JsonPtr.parse, JsonPtr.strip_slash, JsonPtr.unescape_code.
  unfold Json.SLASH, Json.TILDE, Json.ZERO, Json.ONE.
  rewrite <- !s_split_json, !s_split_jsonptr.
  destruct (c =? 47); apply map_ext; intros t; rewrite <- !s_replace_cc_json; reflexivity.
Qed.

Lemma jp_parse_agrees_c07 : agrees1 gen_jp_parse (fun p => Ok (JsonPtr.parse p)).
Proof. exact (agrees1_ext _ _ _ (fun p => f_equal Ok (jp_parse_models p)) jp_parse_agrees). Qed.

Lemma sp_get_cons cur (t : Json.str) toks :
  Registry.sp_get cur (t :: toks) =
  match Registry.sp_get cur [t] with Some c => Registry.sp_get c toks | None => None end.
Proof.
  destruct cur as [| | | |a|m]; cbn [Registry.sp_get]; try reflexivity.
  - destruct (Json.parse_usize t) as [i|]; [|reflexivity]. destruct (Json.nthN a i); reflexivity.
  - destruct (Json.oget m t); reflexivity.
Qed.

Lemma eval_loop (f : Json.str -> Json.json -> outcome (lflow Json.json (option Json.json))) :
  (forall tok cur, f tok cur = Ok (match Registry.sp_get cur [tok] with Some c => LNext c | None => LReturn None end)) ->
  forall toks cur, for_each_chk f toks cur =
    Ok (match Registry.sp_get cur toks with Some v => LFell v | None => LReturned None end).
Proof.
  intros Hf. induction toks as [|t toks IH]; intros cur; cbn [for_each_chk]; [reflexivity|].
  rewrite sp_get_cons, Hf. destruct (Registry.sp_get cur [t]); cbn [bind]; [apply IH|reflexivity].
Qed.

Lemma jp_evaluate_agrees : agrees2 gen_jp_evaluate (fun d p => Ok (Registry.jp_eval d p)).
Proof.
  pose proof jp_parse_agrees as Hp.
  gen_start. all: intros d p; callee Hp; cbv zeta; rewrite Hp; cbn [bind]; unfold Registry.jp_eval.
  all: match goal with |- context [for_each_chk ?f _ _] =>
         rewrite (eval_loop f)
           by (intros tok cur; unfold try_opt_loop; destruct cur as [| | | |a|m]; cbn [Registry.sp_get]; try reflexivity;
               [ destruct (Json.parse_usize tok) as [i|]; [|reflexivity]; destruct (Json.nthN a i); reflexivity
               | destruct (Json.oget m tok); reflexivity ]) end.
  all: cbn [bind]; destruct (Registry.sp_get d (Registry.jp_parse p)); reflexivity.
Qed.

(** the canonical iteration of [unescape_token]'s [while let Some(c) = chars.next()] loop *)
Definition unesc_step (st : str * str) : outcome (lflow (str * str) (result str unit)) :=
  let '(out, chars) := st in
  match chars with
  | [] => Ok (LStop (out, chars))
  | c :: chars' =>
      if c =? 126 then
        match chars' with
        | [] => Ok (LReturn (RErr tt))
        | n :: chars'' =>
            if n =? 48 then Ok (LNext (out ++ [126], chars''))
            else if n =? 49 then Ok (LNext (out ++ [47], chars''))
            else Ok (LReturn (RErr tt))
        end
      else Ok (LNext (out ++ [c], chars'))
  end.

Lemma unesc_loop step : (forall st, step st = unesc_step st) ->
  forall fuel chars out, (length chars < fuel)%nat ->
  loop_chk fuel step (out, chars) =
  Ok (match Registry.unescape_go chars with
      | Some r => LFell (out ++ r, [])
      | None => LReturned (RErr tt)
      end).
Proof.
  intros Hs. induction fuel as [|fuel IH]; intros chars out Hl; [lia|].
  assert (Hk : forall x rest, (length rest < fuel)%nat ->
    loop_chk fuel step (out ++ [x], rest) =
    Ok (match option_map (cons x) (Registry.unescape_go rest) with
        | Some r => LFell (out ++ r, [])
        | None => LReturned (RErr tt)
        end)).
  { intros x rest Hr. rewrite IH by exact Hr.
    destruct (Registry.unescape_go rest); cbn [option_map]; [rewrite <- app_assoc|]; reflexivity. }
  cbn [loop_chk]. rewrite Hs. destruct chars as [|c chars]; cbn [unesc_step bind Registry.unescape_go length] in *.
  - rewrite app_nil_r. reflexivity.
  - unfold Json.TILDE, Json.ZERO, Json.ONE, Json.SLASH. destruct (c =? 126).
    + destruct chars as [|n chars]; cbn [bind length] in *; [reflexivity|].
      destruct (n =? 48); [|destruct (n =? 49)]; cbn [bind]; [apply Hk; lia|apply Hk; lia|reflexivity].
    + cbn [bind]. apply Hk. lia.
Qed.

(** two case trees over the same tests, whatever their nesting and the polarity of each test:
    split every test and list match in sight; the leaves are equal or contradictory *)
Ltac step_eq :=
  repeat (match goal with
          | |- context [if ?b then _ else _] => destruct b eqn:?
          | |- context [match ?l with [] => _ | _ :: _ => _ end] => destruct l eqn:?
          end; cbn [negb bind] in *; try discriminate);
  try reflexivity; try (exfalso; lia).

Lemma unescape_token_agrees : agrees1 gen_unescape_token (fun t => Ok (opt_res (Registry.unescape_token t))).
Proof.
  gen_start. all: intros t; unfold Registry.unescape_token; change (s_contains_c 126 t) with (Json.contains Json.TILDE t).
  all: destruct (Json.contains Json.TILDE t); cbn [negb]; [|reflexivity].
  all: cbv zeta.
  all: match goal with |- context [loop_chk _ ?f _] =>
         rewrite (unesc_loop f) by first [lia | intros [o c]; unfold unesc_step; step_eq] end.
  all: cbn [bind]; destruct (Registry.unescape_go t); cbn [opt_res app]; reflexivity.
Qed.

Lemma escape_token_agrees : agrees1 gen_escape_token (fun t => Ok (Registry.escape_token t)).
Proof. gen_start. all: intros t; reflexivity. Qed.

Lemma canon_loop {R} (f : str -> str -> outcome (lflow str R)) :
  (forall seg out, f seg out = Ok (LNext (out ++ Json.SLASH :: Registry.escape_token seg))) ->
  forall segs out, for_each_chk f segs out =
    Ok (LFell (out ++ flat_map (fun s => Json.SLASH :: Registry.escape_token s) segs)).
Proof.
  intros Hf. induction segs as [|s segs IH]; intros out; cbn [for_each_chk flat_map].
  - rewrite app_nil_r. reflexivity.
  - rewrite Hf. cbn [bind]. rewrite IH, <- app_assoc. reflexivity.
Qed.

Lemma canonical_pointer_agrees : agrees1 gen_canonical_pointer (fun segs => Ok (Registry.canonical_pointer segs)).
Proof.
  pose proof escape_token_agrees as He.
  gen_start. all: intros segs; callee He.
  all: destruct segs as [|s0 segs]; [reflexivity|]; cbn [list_is_empty]; cbv zeta.
  all: match goal with |- context [for_each_chk ?f _ _] =>
         rewrite (canon_loop f) by (intros x o; rewrite He; cbn [bind]; rewrite <- app_assoc; reflexivity) end.
  all: reflexivity.
Qed.

Definition gen_res {A} (r : Registry.res A) : result A reg_error :=
  match r with Registry.Ok a => ROk a | Registry.Err _ => RErr GE_InvalidPointer end.

(** '/' is ASCII, as is the start of the string: what follows it is judged alike *)
Lemma utf8_cont_ok_slash s : utf8_cont_ok (47 :: s) = utf8_cont_ok s.
Proof. destruct s; reflexivity. Qed.

Lemma boundary_end s : is_char_boundary s (len_n s) = true.
Proof.
  unfold is_char_boundary, len_n. rewrite Nat2N.id.
  replace (nth_error s (length s)) with (@None byte); [apply N.eqb_refl|].
  symmetry. apply nth_error_None. lia.
Qed.

Lemma slice_suffix (pre rest : str) : is_char_boundary (pre ++ rest) (len_n pre) = true ->
  s_slice_chk (pre ++ rest) (len_n pre) (len_n (pre ++ rest)) = Ok rest.
Proof.
  intros Hb. unfold s_slice_chk. rewrite Hb, boundary_end.
  replace (len_n pre <=? len_n (pre ++ rest)) with true by (unfold len_n; rewrite app_length; lia).
  rewrite N.leb_refl. cbn [andb]. unfold slice, len_n.
  rewrite !Nat2N.id, skipn_app, skipn_all, Nat.sub_diag, app_length, Nat.add_comm, Nat.add_sub.
  apply f_equal, firstn_all.
Qed.

Lemma slice_from_1 (c : byte) (rest : str) : c < 128 -> utf8_cont_ok (c :: rest) = true ->
  s_slice_chk (c :: rest) 1 (len_n (c :: rest)) = Ok rest.
Proof.
  intros Hc H. apply (slice_suffix [c]). change (is_char_boundary (c :: rest) 1 = true).
  unfold is_char_boundary. change (N.to_nat 1) with 1%nat.
  destruct rest as [|b rest]; cbn [nth_error]; [reflexivity|].
  unfold utf8_cont_ok in H. cbn [cont_ok_after] in H. lia.
Qed.

Lemma map_collect_pure {A B} (f : A -> outcome (result B unit)) (g : A -> option B) l :
  (forall x, f x = Ok (opt_res (g x))) ->
  map_collect_chk f l = Ok (opt_res (Registry.collect_opt (map g l))).
Proof.
  intros H. induction l as [|x l IH]; cbn [map_collect_chk map Registry.collect_opt]; [reflexivity|].
  rewrite H. destruct (g x) as [b|]; cbn [opt_res bind]; [|reflexivity].
  rewrite IH. destruct (Registry.collect_opt (map g l)); reflexivity.
Qed.

Lemma parse_pointer_agrees :
  match gen_parse_pointer with
  | Some f => forall p, utf8_cont_ok p = true -> f p = Ok (gen_res (Registry.parse_pointer p))
  | None => True
  end.
Proof.
  pose proof unescape_token_agrees as Hu.
  gen_start. all: intros p Hp; callee Hu; unfold Registry.parse_pointer; rewrite root_test.
  all: destruct (Registry.is_root_ptr p) eqn:Hr; [reflexivity|].
  all: destruct p as [|c rest]; [discriminate|]; unfold s_starts_with_c, Json.SLASH.
  all: destruct (c =? 47) eqn:Ec; cbn [negb]; [|reflexivity].
  all: rewrite slice_from_1 by (try assumption; lia); cbn [bind].
  all: rewrite (map_collect_pure _ Registry.unescape_token) by (intros x; apply Hu); cbn [bind].
  all: rewrite s_split_json; destruct (Registry.collect_opt _); reflexivity.
Qed.

(** the model's [parse_pointer] / [parse_registration_path] / [canonical_key] fail with [InvalidPointer] only, so [gen_res] loses nothing *)
Lemma parse_pointer_err p e : Registry.parse_pointer p = Registry.Err e -> e = Registry.EInvalidPointer.
Proof.
  unfold Registry.parse_pointer. destruct (Registry.is_root_ptr p); [discriminate|].
  destruct p as [|c rest]; [discriminate|]. destruct (c =? Json.SLASH); [|congruence].
  destruct (Registry.collect_opt _); congruence.
Qed.
Lemma parse_registration_path_err p e : Registry.parse_registration_path p = Registry.Err e -> e = Registry.EInvalidPointer.
Proof. unfold Registry.parse_registration_path. destruct p; [discriminate|]. apply parse_pointer_err. Qed.
Lemma canonical_key_err p e : Registry.canonical_key p = Registry.Err e -> e = Registry.EInvalidPointer.
Proof.
  unfold Registry.canonical_key. destruct (Registry.is_root_ptr p); [discriminate|].
  destruct (negb _); [congruence|]. destruct (negb _); [discriminate|].
  destruct (Registry.parse_pointer p) eqn:E; [discriminate|]. intros H. inversion H; subst. exact (parse_pointer_err _ _ E).
Qed.

Lemma canonical_key_agrees :
  match gen_canonical_key with
  | Some f => forall p, utf8_cont_ok p = true -> f p = Ok (gen_res (Registry.canonical_key p))
  | None => True
  end.
Proof.
  pose proof parse_pointer_agrees as Hp. pose proof canonical_pointer_agrees as Hc.
  gen_start. all: intros p Hu; callee Hp; callee Hc; unfold Registry.canonical_key; rewrite root_test.
  all: destruct (Registry.is_root_ptr p); [reflexivity|].
  all: change (s_starts_with_c 47 p) with (Json.starts_with Json.SLASH p); destruct (Json.starts_with Json.SLASH p); cbn [negb]; [|reflexivity].
  all: change (s_contains_c 126 p) with (Json.contains Json.TILDE p); destruct (Json.contains Json.TILDE p); cbn [negb]; [|reflexivity].
  all: rewrite (Hp p Hu); cbn [bind]; destruct (Registry.parse_pointer p); cbn [gen_res try_res]; [|reflexivity].
  all: rewrite Hc; reflexivity.
Qed.

Lemma try_res_id {A} (r : Registry.res A) : (tryr t <- gen_res r; Ok (ROk t)) = Ok (gen_res r).
Proof. destruct r; reflexivity. Qed.

Lemma parse_registration_path_agrees :
  match gen_parse_registration_path with
  | Some f => forall p, utf8_cont_ok p = true -> f p = Ok (gen_res (Registry.parse_registration_path p))
  | None => True
  end.
Proof.
  pose proof parse_pointer_agrees as Hp.
  gen_start. all: intros p Hu; callee Hp; unfold Registry.parse_registration_path; rewrite str_empty_case.
  all: destruct (list_is_empty p); [reflexivity|].
  all: change (s_starts_with_c 47 p) with (Json.starts_with Json.SLASH p); destruct (Json.starts_with Json.SLASH p); cbv zeta; cbn [app].
  all: rewrite ?(Hp p Hu), ?(Hp (47 :: p)) by (rewrite utf8_cont_ok_slash; exact Hu); cbn [bind]; unfold Json.SLASH.
  all: apply try_res_id.
Qed.

Lemma register_function_key_agrees :
  match gen_register_function_key with
  | Some f => forall ens p, utf8_cont_ok p = true -> f ens p = Ok (register_spec ens p)
  | None => True
  end.
Proof.
  pose proof parse_registration_path_agrees as Hp. pose proof canonical_pointer_agrees as Hc.
  gen_start. all: intros ens p Hu; callee Hp; callee Hc; unfold register_spec; cbv zeta.
  all: rewrite (Hp p Hu); cbn [bind]; destruct (Registry.parse_registration_path p) as [segs|e]; cbn [gen_res try_res]; [|reflexivity].
  all: destruct segs as [|s0 segs]; [reflexivity|]; cbn [list_is_empty].
  all: destruct (ens (s0 :: segs)) as [[]|e]; cbn [try_res]; [|reflexivity].
  all: rewrite Hc; reflexivity.
Qed.

(** [RegistryEntry::matches], [StructEntry::matches] and [RegisteredRegistry::pointer_for] have one
    shape, in the code and in the model: the empty mount point, the mount point itself, a path that
    continues it at a '/'; [path == prefix] may be written either way round *)
Ltac mount_tac :=
  intros pre path; rewrite str_empty_case; destruct (list_is_empty pre); [destruct path; reflexivity|];
  rewrite ?(s_eqb_sym pre path);
  change (s_eqb path pre) with (Json.str_eqb path pre);
  change (s_strip_prefix pre path) with (Registry.strip_pre pre path);
  destruct (Json.str_eqb path pre); cbn [orb]; try reflexivity;
  destruct (Registry.strip_pre pre path) as [rest|]; cbn [opt_is_some_and try_opt]; try reflexivity;
  cbv zeta; change (s_starts_with_c 47 rest) with (Json.starts_with Json.SLASH rest);
  destruct (Json.starts_with Json.SLASH rest); reflexivity.

Lemma registry_matches_agrees : agrees2 gen_registry_matches (fun pre path => Ok (Registry.mount_matches pre path)).
Proof. gen_start. all: unfold Registry.mount_matches; mount_tac. Qed.

(** Model/Router.v spells the same function with the string functions of Model/JsonPtr.v and [if]
    for [||]: the two unfold to one term, and so do [pointer_for] and [Router.registry_pointer] *)
Lemma mount_matches_router pre path : Registry.mount_matches pre path = Router.matches pre path.
Proof. reflexivity. Qed.

Lemma registry_matches_agrees_c07 : agrees2 gen_registry_matches (fun pre path => Ok (Router.matches pre path)).
Proof. exact registry_matches_agrees. Qed.

Lemma struct_matches_agrees : agrees2 gen_struct_matches (fun root path => Ok (Router.matches root path)).
Proof.
  gen_start. all: intros pre path; rewrite <- mount_matches_router; revert pre path.
  all: unfold Registry.mount_matches; mount_tac.
Qed.

Lemma pointer_for_agrees : agrees2 gen_pointer_for (fun pre path => Ok (Registry.pointer_for pre path)).
Proof. gen_start. all: unfold Registry.pointer_for; mount_tac. Qed.

Lemma pointer_for_router pre path : Registry.pointer_for pre path = Router.registry_pointer pre path.
Proof. reflexivity. Qed.

Lemma pointer_for_agrees_c07 : agrees2 gen_pointer_for (fun pre path => Ok (Router.registry_pointer pre path)).
Proof. exact pointer_for_agrees. Qed.

Lemma norm_root_cases (p : str) :
  Router.norm_root p = if list_is_empty p || s_eqb p [47] then [] else if s_starts_with_c 47 p then p else 47 :: p.
Proof.
  destruct p as [|c [|d r]]; cbn [Router.norm_root list_is_empty s_eqb s_starts_with_c orb]; try reflexivity.
  - rewrite andb_true_r. destruct (c =? 47); reflexivity.
  - rewrite andb_false_r. destruct (c =? 47); reflexivity.
Qed.

Lemma struct_root_agrees : agrees1 gen_struct_root (fun root => Ok (Router.norm_root root)).
Proof.
  gen_start. all: intros p; rewrite norm_root_cases.
  all: destruct (list_is_empty p || s_eqb p [47]); [reflexivity|]; destruct (s_starts_with_c 47 p); reflexivity.
Qed.

Lemma norm_prefix_cases (p : str) :
  Router.norm_prefix p = let n : str := Router.norm_root p in if 1 <? @len_n byte n then s_trim_end_c 47 n else n.
Proof.
  unfold Router.norm_prefix. cbv zeta. destruct (Router.norm_root p) as [|a [|b r]]; try reflexivity.
  assert (E : 1 <? @len_n byte (a :: b :: r) = true) by (unfold len_n; cbn [length]; lia).
  rewrite E. now rewrite s_trim_end_router.
Qed.

Lemma ok_if {A} (c : bool) (a b : A) : (if c then Ok a else Ok b) = Ok (if c then a else b).
Proof. destruct c; reflexivity. Qed.

Lemma registry_prefix_agrees : agrees1 gen_registry_prefix (fun prefix => Ok (Router.norm_prefix prefix)).
Proof.
  gen_start. all: intros p; rewrite norm_prefix_cases, norm_root_cases; cbv zeta.
  all: destruct (list_is_empty p || s_eqb p [47]); [reflexivity|]; destruct (s_starts_with_c 47 p); cbn [app];
       rewrite ?ok_if; reflexivity.
Qed.

Lemma norm_prefix_registry p : Router.norm_prefix p = Registry.normalize_prefix p.
Proof.
  unfold Router.norm_prefix, Registry.normalize_prefix. cbv zeta.
  destruct p as [|c [|d r]]; cbn [Router.norm_root Registry.is_root_ptr Json.starts_with]; unfold Json.SLASH; try reflexivity.
  - destruct (c =? 47) eqn:E; [reflexivity|]. cbn [Router.trim_end_slashes Registry.trim_end]. rewrite E. reflexivity.
  - destruct (c =? 47); rewrite <- s_trim_end_router; reflexivity.
Qed.

Lemma registry_prefix_agrees_c14 : agrees1 gen_registry_prefix (fun prefix => Ok (Registry.normalize_prefix prefix)).
Proof. exact (agrees1_ext _ _ _ (fun p => f_equal Ok (norm_prefix_registry p)) registry_prefix_agrees). Qed.

Lemma strip_prefix_some (p : str) : forall s r, s_strip_prefix p s = Some r -> s = p ++ r.
Proof.
  induction p as [|a p IH]; intros s r; cbn [s_strip_prefix app]; [congruence|].
  destruct s as [|b s]; [discriminate|]. destruct (N.eqb_spec a b) as [->|]; [|discriminate]. intros H. now rewrite (IH _ _ H).
Qed.

(** [&path[self.root.len()..]] is taken when [path] starts with [root]: between two [&str] that
    cut is a char boundary, which is the hypothesis *)
Lemma relative_pointer_agrees :
  match gen_relative_pointer with
  | Some f => forall root path,
      (s_starts_with root path = true -> is_char_boundary path (len_n root) = true) ->
      f root path = Ok (Router.struct_relative root path)
  | None => True
  end.
Proof.
  gen_start. all: intros root path Hb; unfold Router.struct_relative; rewrite str_empty_case.
  all: destruct (list_is_empty root); [reflexivity|].
  all: change (JsonPtr.str_eqb path root) with (s_eqb path root); destruct (s_eqb path root); [reflexivity|].
  all: rewrite <- s_strip_prefix_router; unfold s_starts_with in *.
  all: destruct (s_strip_prefix root path) as [rest|] eqn:Es; [|reflexivity].
  all: specialize (Hb eq_refl); apply strip_prefix_some in Es; subst path.
  all: rewrite slice_suffix by exact Hb; cbn [bind]; cbv zeta.
  all: change (s_starts_with_c 47 rest) with (Router.starts_with_slash rest); destruct (Router.starts_with_slash rest); reflexivity.
Qed.

Lemma for_each_fold {A S M R} (f : A -> S -> outcome (lflow S R)) (push : M -> A -> M) (vars : M -> S) (Inv : M -> Prop) :
  (forall x m, Inv m -> f x (vars m) = Ok (LNext (vars (push m x))) /\ Inv (push m x)) ->
  forall l m, Inv m -> for_each_chk f l (vars m) = Ok (LFell (vars (fold_left push l m))) /\ Inv (fold_left push l m).
Proof.
  intros H. induction l as [|x l IH]; intros m Hm; cbn [for_each_chk fold_left]; [split; [reflexivity|exact Hm]|].
  destruct (H x m Hm) as [-> Hm']. exact (IH _ Hm').
Qed.

(** the 16-slot array, the counter and the spill vector of the code are the model's [segstate];
    [seg_ok] is what keeps [stack[count] = seg], [count += 1] and [&stack[..count]] from panicking *)
Definition seg_vars (m : JsonPtr.segstate) : list str * N * option (list str) :=
  (JsonPtr.ss_stack m, N.of_nat (JsonPtr.ss_count m), JsonPtr.ss_overflow m).
Definition seg_ok (m : JsonPtr.segstate) : Prop :=
  @length str (JsonPtr.ss_stack m) = 16%nat /\ (JsonPtr.ss_count m <= 16)%nat.

Lemma store_set_nth {A} (x : A) : forall l i, (i < length l)%nat ->
  firstn i l ++ x :: skipn (S i) l = JsonPtr.set_nth i x l.
Proof.
  induction l as [|y l IH]; intros i Hi; cbn [length] in Hi; [lia|].
  destruct i as [|i]; cbn [firstn skipn app JsonPtr.set_nth]; [reflexivity|].
  f_equal. apply IH. lia.
Qed.
Lemma set_nth_length {A} (x : A) : forall l i, length (JsonPtr.set_nth i x l) = length l.
Proof. induction l as [|y l IH]; intros [|i]; cbn [JsonPtr.set_nth length]; try reflexivity. now rewrite IH. Qed.

Lemma store_slot {A} (l : list A) n x : (n < length l)%nat ->
  l_store_chk l (N.of_nat n) x = Ok (JsonPtr.set_nth n x l).
Proof.
  intros H. unfold l_store_chk, len_n. replace (N.of_nat n <? N.of_nat (length l)) with true by lia.
  rewrite Nat2N.id, store_set_nth by exact H. reflexivity.
Qed.
Lemma count_succ n : (n < 16)%nat -> add64 (N.of_nat n) 1 = Ok (N.of_nat (S n)).
Proof.
  intros H. unfold add64, two64. replace (N.of_nat n + 1 <? _) with true by lia. f_equal. lia.
Qed.
Lemma count_ltb n : N.of_nat n <? 16 = (n <? 16)%nat.
Proof. destruct (Nat.ltb_spec n 16); lia. Qed.

(** one iteration is [ss_push]: a spilled buffer grows, a free slot is stored into, and the
    17th segment spills the 16 slots; the goal is the hypothesis of [for_each_fold] *)
Ltac seg_step :=
  intros x m [Hlen Hcnt]; unfold seg_vars, JsonPtr.ss_push, JsonPtr.STACK_SEGS; rewrite ?count_ltb;
  destruct (JsonPtr.ss_overflow m) as [v|]; [split; [reflexivity|split; assumption]|];
  destruct (Nat.ltb_spec (JsonPtr.ss_count m) 16) as [Hlt|Hge];
  [ rewrite store_slot, count_succ by (rewrite ?Hlen; exact Hlt);
    split; [reflexivity|split; [cbn [JsonPtr.ss_stack]; rewrite set_nth_length; exact Hlen|exact Hlt]]
  | split; [reflexivity|split; assumption] ].

Lemma struct_segments_agrees : agrees1 gen_struct_segments (fun rel => Ok (SHandled (JsonPtr.struct_segments rel))).
Proof.
  pose proof jp_parse_agrees_c07 as Hp.
  gen_start. all: intros rel; callee Hp; unfold JsonPtr.struct_segments; change (s_contains_c 126 rel) with (JsonPtr.contains_tilde rel).
  all: destruct (JsonPtr.contains_tilde rel); cbn [negb]; [rewrite Hp; reflexivity|].
  all: unfold JsonPtr.fast_segments; rewrite str_empty_case; destruct (list_is_empty rel); [reflexivity|].
  all: change (s_eqb rel [47]) with (JsonPtr.str_eqb rel [47]); destruct (JsonPtr.str_eqb rel [47]); [reflexivity|]; cbv zeta.
  all: replace (o_unwrap_or (s_strip_prefix_c 47 rel) rel) with (JsonPtr.strip_slash rel)
         by (destruct rel as [|c r]; [reflexivity|]; unfold JsonPtr.strip_slash, s_strip_prefix_c, o_unwrap_or; destruct (c =? 47); reflexivity).
  all: rewrite s_split_jsonptr.
  (* from here on the loop body is a variable with the step property: the generated term stays out
     of the rest of the proof term *)
  all: match goal with |- context [for_each_chk ?f _ ?s] =>
         change s with (seg_vars JsonPtr.ss_init);
         assert (Hstep : forall x m, seg_ok m ->
                   f x (seg_vars m) = Ok (LNext (seg_vars (JsonPtr.ss_push m x))) /\ seg_ok (JsonPtr.ss_push m x)) by seg_step;
         revert Hstep; generalize f; intros body Hstep
       end.
  all: match goal with |- context [for_each_chk _ ?l _] =>
         destruct (for_each_fold body JsonPtr.ss_push seg_vars seg_ok Hstep l JsonPtr.ss_init) as [-> [Hlen Hcnt]];
         [split; [reflexivity|apply Nat.le_0_l]|]
       end.
  all: cbn [bind]; unfold seg_vars, JsonPtr.ss_result; destruct (JsonPtr.ss_overflow _); [reflexivity|].
  all: rewrite slice_prefix by lia; reflexivity.
Qed.

Lemma utf8_cont_ok_no_cont s : forallb (fun b => negb ((128 <=? b) && (b <? 192))) s = true -> utf8_cont_ok s = true.
Proof.
  unfold utf8_cont_ok. generalize 0 at 1. induction s as [|b s IH]; intros prev H; [reflexivity|].
  cbn [forallb cont_ok_after] in *. apply andb_true_iff in H as [Hb Hs]. rewrite (IH b Hs).
  destruct (prev <? 128); cbn [andb]; [|reflexivity]. rewrite andb_true_r.
  destruct ((128 <=? b) && (b <? 192)); [discriminate|reflexivity].
Qed.
(** [utf8_cont_ok] is needed: on the byte string "/" 0x80 (not UTF-8, so not a [&str]) the rendering of
    [&pointer[1..]] hits the char-boundary panic *)
Lemma parse_pointer_boundary_panic :
  match gen_parse_pointer with Some f => f [47; 128] = Panic | None => True end.
Proof. gen_start. all: vm_compute; reflexivity. Qed.
