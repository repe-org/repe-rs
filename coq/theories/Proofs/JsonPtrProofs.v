(** Proofs about the tokenisation model (Model/JsonPtr.v): the segments a
    mounted struct sees are exactly the RFC 6901 reference tokens of the
    relative path, for every depth.  [parse] is a left inverse of [render];
    the well-escaped pointer-shaped strings are exactly the renderings; the
    rest follows from these two facts. *)
From RepeV Require Import Model.JsonPtr.

Lemma list_eqb_spec {A} (e : A -> A -> bool) (le : list A -> list A -> bool) :
  (forall a b, le a b = match a, b with
                        | [], [] => true
                        | x :: a', y :: b' => e x y && le a' b'
                        | _, _ => false
                        end) ->
  (forall x y, e x y = true <-> x = y) ->
  forall a b, le a b = true <-> a = b.
Proof.
  intros Hle He. induction a as [|x a IH]; intros [|y b]; rewrite Hle.
  - split; reflexivity.
  - split; discriminate.
  - split; discriminate.
  - rewrite andb_true_iff, He, IH. split.
    + intros [-> ->]. reflexivity.
    + intros [= -> ->]. split; reflexivity.
Qed.

Lemma str_eqb_eq a b : str_eqb a b = true <-> a = b.
Proof. apply (list_eqb_spec N.eqb); [intros [|] [|]; reflexivity|exact N.eqb_eq]. Qed.

Lemma str_eqb_refl a : str_eqb a a = true.
Proof. apply str_eqb_eq. reflexivity. Qed.

Lemma str_eqb_neq a b : str_eqb a b = false <-> a <> b.
Proof. rewrite <- str_eqb_eq. destruct (str_eqb a b); split; congruence. Qed.

Lemma strs_eqb_eq a : forall b, strs_eqb a b = true <-> a = b.
Proof. revert a. apply (list_eqb_spec str_eqb); [intros [|] [|]; reflexivity|exact str_eqb_eq]. Qed.

Lemma rfc_escape_tilde t : rfc_escape (126 :: t) = 126 :: 48 :: rfc_escape t.
Proof. reflexivity. Qed.

Lemma rfc_escape_slash t : rfc_escape (47 :: t) = 126 :: 49 :: rfc_escape t.
Proof. reflexivity. Qed.

Lemma rfc_escape_plain c t : c <> 126 -> c <> 47 -> rfc_escape (c :: t) = c :: rfc_escape t.
Proof.
  intros H1 H2. apply N.eqb_neq in H1, H2. cbn [rfc_escape]. rewrite H1, H2. reflexivity.
Qed.

Lemma rfc_escape_no_slash t : Forall (fun c => c <> 47) (rfc_escape t).
Proof.
  induction t as [|c t IH]; [constructor|].
  destruct (N.eq_dec c 126) as [->|H1]; [|destruct (N.eq_dec c 47) as [->|H2]].
  - rewrite rfc_escape_tilde. constructor; [discriminate|]. constructor; [discriminate|exact IH].
  - rewrite rfc_escape_slash. constructor; [discriminate|]. constructor; [discriminate|exact IH].
  - rewrite rfc_escape_plain by assumption. constructor; assumption.
Qed.

Lemma replace2_eq a b r c d s :
  replace2 a b r (c :: d :: s)
  = if (c =? a) && (d =? b) then r ++ replace2 a b r s else c :: replace2 a b r (d :: s).
Proof. reflexivity. Qed.

Lemma replace2_cons_ne a b r c s : c <> a -> replace2 a b r (c :: s) = c :: replace2 a b r s.
Proof.
  intros H. destruct s as [|d s]; [reflexivity|].
  rewrite replace2_eq. destruct (N.eqb_spec c a); [contradiction|reflexivity].
Qed.

Lemma replace2_hit a b r s : replace2 a b r (a :: b :: s) = r ++ replace2 a b r s.
Proof. rewrite replace2_eq, !N.eqb_refl. reflexivity. Qed.

Lemma replace2_miss a b r d s : d <> b -> replace2 a b r (a :: d :: s) = a :: replace2 a b r (d :: s).
Proof.
  intros H. rewrite replace2_eq. destruct (N.eqb_spec d b); [contradiction|].
  rewrite andb_false_r. reflexivity.
Qed.

Lemma unescape_code_plain c t : c <> 126 -> unescape_code (c :: t) = c :: unescape_code t.
Proof.
  intros H. unfold unescape_code.
  rewrite (replace2_cons_ne 126 49) by exact H. rewrite (replace2_cons_ne 126 48) by exact H. reflexivity.
Qed.

Lemma unescape_code_tilde0 t : unescape_code (126 :: 48 :: t) = 126 :: unescape_code t.
Proof.
  unfold unescape_code.
  rewrite (replace2_miss 126 49) by discriminate.
  rewrite (replace2_cons_ne 126 49 _ 48) by discriminate.
  rewrite replace2_hit. reflexivity.
Qed.

Lemma unescape_code_tilde1 t : unescape_code (126 :: 49 :: t) = 47 :: unescape_code t.
Proof.
  unfold unescape_code. rewrite replace2_hit. cbn [app].
  rewrite (replace2_cons_ne 126 48) by discriminate. reflexivity.
Qed.

Lemma unescape_escape t : unescape_code (rfc_escape t) = t.
Proof.
  induction t as [|c t IH]; [reflexivity|].
  destruct (N.eq_dec c 126) as [->|H1]; [|destruct (N.eq_dec c 47) as [->|H2]].
  - rewrite rfc_escape_tilde, unescape_code_tilde0, IH. reflexivity.
  - rewrite rfc_escape_slash, unescape_code_tilde1, IH. reflexivity.
  - rewrite rfc_escape_plain, unescape_code_plain, IH by assumption. reflexivity.
Qed.

Lemma split_slash_cons c s :
  split_slash (c :: s)
  = if c =? 47 then [] :: split_slash s
    else match split_slash s with t :: ts => (c :: t) :: ts | [] => [[c]] end.
Proof. reflexivity. Qed.

Lemma split_slash_slash s : split_slash (47 :: s) = [] :: split_slash s.
Proof. reflexivity. Qed.

Lemma split_slash_nonempty s : split_slash s <> [].
Proof.
  induction s as [|c s IH]; [discriminate|]. rewrite split_slash_cons.
  destruct (c =? 47); [discriminate|]. destruct (split_slash s); discriminate.
Qed.

Lemma split_slash_app e x : Forall (fun c => c <> 47) e ->
  split_slash (e ++ x) = (e ++ hd [] (split_slash x)) :: tl (split_slash x).
Proof.
  induction 1 as [|c e Hc _ IH]; cbn [app].
  - destruct (split_slash x) eqn:E; [destruct (split_slash_nonempty x E)|reflexivity].
  - apply N.eqb_neq in Hc. rewrite split_slash_cons, IH, Hc. reflexivity.
Qed.

Lemma render_cons t ts : render (t :: ts) = 47 :: rfc_escape t ++ render ts.
Proof. reflexivity. Qed.

Lemma parse_slash s : parse (47 :: s) = map unescape_code (split_slash s).
Proof. reflexivity. Qed.

Lemma parse_render ts : parse (render ts) = ts.
Proof.
  destruct ts as [|t ts]; [reflexivity|]. rewrite render_cons, parse_slash.
  revert t. induction ts as [|t' ts IH]; intros t; rewrite split_slash_app by apply rfc_escape_no_slash.
  - cbn [render concat map split_slash hd tl]. rewrite app_nil_r, unescape_escape. reflexivity.
  - rewrite render_cons, split_slash_slash. cbn [hd tl map].
    rewrite app_nil_r, unescape_escape, IH. reflexivity.
Qed.

Lemma render_inj ts : forall ts', render ts = render ts' -> ts = ts'.
Proof. intros ts' H. rewrite <- (parse_render ts), H. apply parse_render. Qed.

Lemma pointer_shaped_render ts : pointer_shaped (render ts) = true.
Proof. destruct ts; reflexivity. Qed.

Lemma well_escaped_cons_ne c s : c <> 126 -> well_escaped (c :: s) = well_escaped s.
Proof. intros H. apply N.eqb_neq in H. cbn [well_escaped]. rewrite H. reflexivity. Qed.

Lemma well_escaped_tilde d s :
  well_escaped (126 :: d :: s) = ((d =? 48) || (d =? 49)) && well_escaped s.
Proof.
  change (well_escaped (126 :: d :: s)) with (((d =? 48) || (d =? 49)) && well_escaped (d :: s)).
  (* a second '~' is neither '0' nor '1': both sides are [false]; any other [d] is passed over *)
  destruct (N.eq_dec d 126) as [->|E]; [reflexivity|].
  rewrite (well_escaped_cons_ne d s E). reflexivity.
Qed.

Lemma well_escaped_escape_app t x : well_escaped (rfc_escape t ++ x) = well_escaped x.
Proof.
  induction t as [|c t IH]; [reflexivity|].
  destruct (N.eq_dec c 126) as [->|H1]; [|destruct (N.eq_dec c 47) as [->|H2]].
  - rewrite rfc_escape_tilde. cbn [app]. rewrite well_escaped_tilde. exact IH.
  - rewrite rfc_escape_slash. cbn [app]. rewrite well_escaped_tilde. exact IH.
  - rewrite rfc_escape_plain by assumption. cbn [app]. rewrite well_escaped_cons_ne by assumption. exact IH.
Qed.

Lemma well_escaped_render ts : well_escaped (render ts) = true.
Proof.
  induction ts as [|t ts IH]; [reflexivity|].
  rewrite render_cons, well_escaped_cons_ne, well_escaped_escape_app by discriminate. exact IH.
Qed.

Lemma well_escaped_ind (P : str -> Prop) :
  P [] ->
  (forall c s, c <> 126 -> well_escaped s = true -> P s -> P (c :: s)) ->
  (forall d s, d = 48 \/ d = 49 -> well_escaped s = true -> P s -> P (126 :: d :: s)) ->
  forall s, well_escaped s = true -> P s.
Proof.
  intros H0 H1 H2 s.
  (* an escape pair takes two bytes: the claim for [s] and for every [c :: s] go together *)
  enough (H : (well_escaped s = true -> P s) /\ forall c, well_escaped (c :: s) = true -> P (c :: s))
    by apply H.
  induction s as [|d s [IHs IHc]].
  - split; [intros _; exact H0|]. intros c Hw.
    destruct (N.eq_dec c 126) as [->|E]; [discriminate Hw|]. apply H1; [exact E|reflexivity|exact H0].
  - split; [apply IHc|]. intros c Hw. destruct (N.eq_dec c 126) as [->|E].
    + rewrite well_escaped_tilde in Hw. apply andb_true_iff in Hw as [Hd Hw].
      apply orb_true_iff in Hd. rewrite !N.eqb_eq in Hd. apply H2; [exact Hd|exact Hw|exact (IHs Hw)].
    + rewrite well_escaped_cons_ne in Hw by exact E. apply H1; [exact E|exact Hw|exact (IHc d Hw)].
Qed.

Lemma well_escaped_rendered s : well_escaped s = true -> exists t ts, s = rfc_escape t ++ render ts.
Proof.
  revert s. apply well_escaped_ind.
  - exists [], []. reflexivity.
  - intros c s Hc _ (t & ts & ->). destruct (N.eq_dec c 47) as [->|H].
    + exists [], (t :: ts). reflexivity.
    + exists (c :: t), ts. rewrite rfc_escape_plain by assumption. reflexivity.
  - intros d s [-> | ->] _ (t & ts & ->).
    + exists (126 :: t), ts. reflexivity.
    + exists (47 :: t), ts. reflexivity.
Qed.

Lemma render_onto rel :
  well_escaped rel = true -> pointer_shaped rel = true -> exists ts, render ts = rel.
Proof.
  destruct rel as [|c s]; [exists []; reflexivity|]. cbn [pointer_shaped]. intros Hw Hs.
  apply N.eqb_eq in Hs. subst c. rewrite well_escaped_cons_ne in Hw by discriminate.
  destruct (well_escaped_rendered s Hw) as (t & ts & ->). exists (t :: ts). reflexivity.
Qed.

Lemma render_parse rel :
  well_escaped rel = true -> pointer_shaped rel = true -> render (parse rel) = rel.
Proof. intros Hw Hs. destruct (render_onto rel Hw Hs) as [ts <-]. rewrite parse_render. reflexivity. Qed.

Lemma set_nth_length {A} n (x : A) l : length (set_nth n x l) = length l.
Proof.
  revert n; induction l as [|y l IH]; intros n; cbn [set_nth length]; [reflexivity|].
  destruct n; cbn [length]; [reflexivity|]. rewrite IH. reflexivity.
Qed.

Lemma firstn_set_nth {A} n (x : A) : forall l,
  (n < length l)%nat -> firstn (S n) (set_nth n x l) = firstn n l ++ [x].
Proof.
  induction n as [|n IH]; intros [|y l] H; cbn [length] in H; try lia.
  - reflexivity.
  - cbn [set_nth]. rewrite !firstn_cons. cbn [app]. f_equal. apply IH. lia.
Qed.

(** [done] are the segments pushed so far: they sit in the used slots, or,
    once there were more than the slots hold, in the overflow vector *)
Definition ss_inv (st : segstate) (done : list str) : Prop :=
  match ss_overflow st with
  | Some v => v = done /\ (STACK_SEGS < length done)%nat
  | None =>
      length (ss_stack st) = STACK_SEGS /\ (ss_count st <= STACK_SEGS)%nat /\
      firstn (ss_count st) (ss_stack st) = done
  end.

Lemma ss_inv_init : ss_inv ss_init [].
Proof.
  unfold ss_inv, ss_init. cbn [ss_overflow ss_stack ss_count].
  split; [apply repeat_length|]. split; [lia|apply firstn_O].
Qed.

Lemma ss_inv_push st done seg : ss_inv st done -> ss_inv (ss_push st seg) (done ++ [seg]).
Proof.
  unfold ss_inv, ss_push. rewrite app_length. cbn [length]. destruct (ss_overflow st) as [v|].
  - intros [-> Hl]. cbn [ss_overflow]. split; [reflexivity|lia].
  - intros (Hl & Hc & <-). destruct (Nat.ltb_spec (ss_count st) STACK_SEGS) as [Hlt|Hge].
    + cbn [ss_overflow ss_stack ss_count]. split; [rewrite set_nth_length; exact Hl|].
      split; [lia|]. apply firstn_set_nth. lia.
    + cbn [ss_overflow]. replace (ss_count st) with (length (ss_stack st)) by lia.
      rewrite firstn_all. split; [reflexivity|lia].
Qed.

Lemma ss_inv_fold segs : forall st done,
  ss_inv st done -> ss_inv (fold_left ss_push segs st) (done ++ segs).
Proof.
  induction segs as [|seg segs IH]; intros st done H; cbn [fold_left].
  - rewrite app_nil_r. exact H.
  - change (seg :: segs) with ([seg] ++ segs). rewrite app_assoc. apply IH. apply ss_inv_push. exact H.
Qed.

Lemma ss_inv_run segs : ss_inv (fold_left ss_push segs ss_init) segs.
Proof. exact (ss_inv_fold segs ss_init [] ss_inv_init). Qed.

Lemma stack_buffer_transparent segs : ss_result (fold_left ss_push segs ss_init) = segs.
Proof.
  pose proof (ss_inv_run segs) as H. unfold ss_inv, ss_result in *.
  destruct (ss_overflow _); apply H.
Qed.

Lemma ss_overflow_iff segs :
  ss_overflow (fold_left ss_push segs ss_init) <> None <-> (STACK_SEGS < length segs)%nat.
Proof.
  pose proof (ss_inv_run segs) as H. unfold ss_inv in H. destruct (ss_overflow _).
  - split; [intros _; apply H|discriminate].
  - destruct H as (_ & Hc & <-). pose proof (firstn_le_length (ss_count (fold_left ss_push segs ss_init))
                                               (ss_stack (fold_left ss_push segs ss_init))).
    split; [intros E; destruct (E eq_refl)|lia].
Qed.

Lemma contains_tilde_cons c s : contains_tilde (c :: s) = (c =? 126) || contains_tilde s.
Proof. reflexivity. Qed.

Lemma map_unescape_tilde_free s :
  contains_tilde s = false -> map unescape_code (split_slash s) = split_slash s.
Proof.
  induction s as [|c s IH]; intros H; [reflexivity|].
  rewrite contains_tilde_cons in H. apply orb_false_iff in H as [Hc Hs]. apply N.eqb_neq in Hc.
  specialize (IH Hs). rewrite split_slash_cons.
  destruct (c =? 47); [cbn [map]; rewrite IH; reflexivity|].
  destruct (split_slash s) as [|t ts]; cbn [map] in *; [reflexivity|].
  injection IH as IH1 IH2. rewrite unescape_code_plain, IH1, IH2 by exact Hc. reflexivity.
Qed.

Lemma contains_tilde_strip s : contains_tilde s = false -> contains_tilde (strip_slash s) = false.
Proof.
  destruct s as [|c s]; [intros H; exact H|]. intros H. unfold strip_slash.
  destruct (c =? 47); [|exact H]. rewrite contains_tilde_cons in H. apply orb_false_iff in H. tauto.
Qed.

Lemma fast_segments_parse rel : contains_tilde rel = false -> fast_segments rel = parse rel.
Proof.
  intros H. destruct rel as [|c s]; [reflexivity|].
  unfold fast_segments. destruct (str_eqb (c :: s) [47]) eqn:E.
  - apply str_eqb_eq in E. rewrite E. reflexivity.
  - rewrite stack_buffer_transparent. unfold parse.
    rewrite map_unescape_tilde_free; [reflexivity|]. apply contains_tilde_strip. exact H.
Qed.

Lemma struct_segments_parse rel : struct_segments rel = parse rel.
Proof.
  unfold struct_segments. destruct (contains_tilde rel) eqn:E; cbn [negb]; [reflexivity|].
  apply fast_segments_parse. exact E.
Qed.

Lemma render_struct_segments rel :
  well_escaped rel = true -> pointer_shaped rel = true -> render (struct_segments rel) = rel.
Proof. rewrite struct_segments_parse. apply render_parse. Qed.

Lemma struct_segments_render ts : struct_segments (render ts) = ts.
Proof. rewrite struct_segments_parse. apply parse_render. Qed.

Lemma length_render_segments ts : length (struct_segments (render ts)) = length ts.
Proof. rewrite struct_segments_render. reflexivity. Qed.
