(** Agreement of the hand-written models of the frame parsers (Model/Header.v,
    Model/Message.v) with the Gallina rendering that bin/rs2v regenerates from
    /repo/src/header.rs and src/message.rs on every run (Gen/FrameGen.v).  The
    rendering keeps every panicking operation of the Rust text (overflow-checked
    [+], bounds-checked slicing and indexing); the statements are equalities of
    outcomes on ALL byte strings, including the [Panic] branches.  A function
    that could not be translated is [None] and its lemma degrades to [True]. *)
From RepeV Require Import Model.Message Proofs.HeaderProofs Proofs.MessageProofs Base.GenVecPrelude Gen.FrameGen.
From RepeV Require Export Proofs.GenAgreeBase.
From Coq Require Import ZifyBool.

Ltac len_lia := unfold lenN, HEADER_SIZE, byte in *; lia.

Lemma add64_not_err a b e : add64 a b <> Err e.
Proof. unfold add64. destruct (a + b <? two64); discriminate. Qed.

Lemma slice_chk_firstn {A} (bs : list A) n : n <= lenN bs -> slice_chk bs 0 n = Ok (firstn (N.to_nat n) bs).
Proof. intros H. rewrite slice_chk_ok by lia. now rewrite slice_0_firstn. Qed.

Lemma slice_chk_mid {A} (x y z : list A) a b :
  a = lenN x -> b = a + lenN y -> slice_chk (x ++ y ++ z) a b = Ok y.
Proof.
  intros -> ->. rewrite slice_chk_ok by (rewrite ?lenN_app; lia).
  now rewrite (slice_mid x y z) by (unfold lenN; lia).
Qed.

Lemma index_chk_ok bs i : i < lenN bs -> index_chk bs i = Ok (nth (N.to_nat i) bs 0).
Proof.
  intros H. unfold index_chk. destruct (nth_error bs (N.to_nat i)) eqn:E.
  - now rewrite (nth_error_nth _ _ _ E).
  - apply nth_error_None in E. unfold lenN in H. lia.
Qed.

Lemma field_byte bs off : (off < length bs)%nat -> field bs off 1 = nth off bs 0.
Proof.
  rewrite field_eq. revert bs. induction off as [|off IH]; intros [|b bs] H; cbn [length] in H; try lia.
  - cbn [skipn firstn le_dec nth]. lia.
  - apply IH. lia.
Qed.

(** reads at closed offsets inside a prefix known to exist: the bounds are decided by
    evaluation; [o] and [w] are the offset and the width as [nat], so that the result has the
    shape of the model's [field] *)
Lemma slice_chk_within {A} (bs : list A) n a b o w :
  n <= lenN bs -> (a <=? b) && (b <=? n) = true -> N.to_nat a = o -> N.to_nat b = (o + w)%nat ->
  slice_chk bs a b = Ok (slice bs o (o + w)).
Proof. intros Hn H <- <-. apply slice_chk_ok; lia. Qed.

Lemma index_chk_within bs n i o :
  n <= lenN bs -> (i <? n) = true -> N.to_nat i = o -> index_chk bs i = Ok (le_dec (slice bs o (o + 1))).
Proof.
  intros Hn H <-. fold (field bs (N.to_nat i) 1). rewrite field_byte by (unfold lenN in *; lia).
  apply index_chk_ok. lia.
Qed.

Lemma copy_chk_ok (buf : list byte) a b src :
  (a <=? b) && (b <=? lenN buf) && (b - a =? lenN src) = true -> copy_chk buf a b src = Ok (overwrite buf (N.to_nat a) src).
Proof. unfold copy_chk. now intros ->. Qed.

Lemma copy_chk_mid (x y z src : list byte) a b :
  a = lenN x -> b = a + lenN y -> lenN src = lenN y -> copy_chk (x ++ y ++ z) a b src = Ok (x ++ src ++ z).
Proof.
  intros -> -> Hs. rewrite copy_chk_ok by (rewrite ?lenN_app; lia).
  now rewrite overwrite_mid by (unfold lenN in *; lia).
Qed.

Lemma store_chk_mid (x z : list byte) y i v : i = lenN x -> store_chk (x ++ y :: z) i v = Ok (x ++ v :: z).
Proof.
  intros ->. unfold store_chk. replace (lenN x <? lenN (x ++ y :: z)) with true by (unfold lenN; rewrite app_length; cbn [length]; lia).
  now rewrite (overwrite_mid x [y] z [v]) by (unfold lenN; cbn [length]; lia).
Qed.

Lemma vec_resize_grow (v : list byte) n x :
  lenN v <= n -> vec_resize v n x = v ++ repeat x (N.to_nat n - length v).
Proof.
  intros H. unfold vec_resize. destruct (n <=? lenN v) eqn:E; [|reflexivity].
  assert (Hn : N.to_nat n = length v) by (unfold lenN in *; lia).
  rewrite Hn, firstn_all, Nat.sub_diag. cbn [repeat]. now rewrite app_nil_r.
Qed.

Lemma vec_resize_nil n x : vec_resize [] n x = repeat x (N.to_nat n).
Proof. rewrite vec_resize_grow by (unfold lenN; cbn [length]; lia). cbn [app length]. now rewrite Nat.sub_0_r. Qed.

(** After unfolding ([add64] is a test against [two64]), each side is a tree of [if]s and option
    [match]es with outcomes at the leaves; the two sides make the same tests in different words
    (the rendering compares two [Option]s with [opt_eqb] where the model matches on one).
    [split_all] takes the cases and the equations it records decide each leaf.
    [split_ctrl]: the same on the goal, but only for an [if] whose branches are outcomes: a test
    inside the data (a field that is itself an [if]) is left alone. *)
Ltac split_ctrl :=
  repeat (match goal with
          | |- context [if ?b then ?x else _] =>
              lazymatch type of x with outcome _ => destruct b eqn:? end
          end; cbv beta iota; try discriminate).
(** for two [do] chains with the same steps: case analysis on the outcome of every step; a step
    that fails on one side fails in the same way on the other *)
Ltac bind_split :=
  repeat (match goal with |- context [bind ?x _] => destruct x eqn:? end; cbn [bind]; try reflexivity).
(** what the successful steps of [bind_split] say about their arguments *)
Ltac invert_checks :=
  repeat match goal with
         | H : add64 _ _ = Ok _ |- _ => apply add64_inv in H; destruct H
         | H : slice_chk _ _ _ = Ok _ |- _ => apply slice_chk_inv in H; destruct H as (? & ? & ? & ?)
         end.

(** Header::decode.  With 48 bytes present, the cursor arithmetic of the rendering is
    closed: it is evaluated in one step, which leaves eleven reads at closed offsets
    ([slice_chk_within], [index_chk_within]); what remains is the case analysis of the two
    validity tests, the same header on both sides. *)
Lemma decode_agrees : agrees1 gen_decode decode.
Proof.
  gen_start. all: intros bs; unfold decode; fold (lenN bs).
  all: destruct (lenN bs <? HEADER_SIZE) eqn:Hlen; [reflexivity|].
  all: apply N.ltb_ge in Hlen.
  all: etransitivity;
    [ cbv beta iota zeta delta [bind add64 N.add N.ltb N.compare Pos.add Pos.add_carry Pos.succ
                               Pos.compare Pos.compare_cont two64];
      repeat match goal with
        | |- context [slice_chk ?l ?a ?b] =>
            let o := eval vm_compute in (N.to_nat a) in
            let w := eval vm_compute in (N.to_nat (b - a)) in
            rewrite (slice_chk_within l _ a b o w Hlen eq_refl eq_refl eq_refl)
        | |- context [index_chk ?l ?i] =>
            let o := eval vm_compute in (N.to_nat i) in
            rewrite (index_chk_within l _ i o Hlen eq_refl eq_refl)
        end;
      cbv beta iota; reflexivity | ].
  all: unfold field, opt_bind, opt_eqb.
  (* the header read is the same term on both sides: as a variable it keeps [split_all] off the
     [if]s and [match]es inside its eleven fields *)
  all: try match goal with |- context [Ok ?h] => generalize h; intro end.
  all: split_all; done.
Qed.

(** Message::new: the code computes [48 + |q| + |b|] with overflow-checked
    [u64] additions; the hand model uses unbounded addition (two Vec lengths
    and 48 cannot exceed 2^64).  Exactly: *)
Lemma msg_new_agrees :
  match gen_msg_new with
  | Some f => forall h q b,
      f h q b = if HEADER_SIZE + lenN q + lenN b <? two64 then msg_new h q b else Panic
  | None => True
  end.
Proof.
  gen_start. all: intros h q b.
  all: unfold msg_new, add64, bind, HEADER_SIZE in *; cbv zeta; split_all; done.
Qed.

(** ... hence, in the only situation that exists at run time: *)
Lemma msg_new_agrees_small :
  match gen_msg_new with
  | Some f => forall h q b, HEADER_SIZE + lenN q + lenN b < two64 -> f h q b = msg_new h q b
  | None => True
  end.
Proof.
  pose proof msg_new_agrees as Ha. by_agree Ha.
  (* [by_agree] introduces the binders under the names the statement gives them: [h q b] *)
  all: rewrite Ha; replace (HEADER_SIZE + lenN q + lenN b <? two64) with true by lia; reflexivity.
Qed.

Ltac open_header :=
  lazymatch goal with
  | |- context [lenN ?bs <? HEADER_SIZE] =>
      destruct (lenN bs <? HEADER_SIZE) eqn:Hlen; [reflexivity|];
      rewrite (slice_chk_firstn bs HEADER_SIZE) by lia; cbn [bind];
      change (N.to_nat HEADER_SIZE) with 48%nat
  end.

Lemma from_slice_agrees : agrees1 gen_from_slice from_slice.
Proof.
  pose proof decode_agrees as Hd. pose proof msg_new_agrees_small as Hn.
  gen_start. all: intros bs; callee Hd; callee Hn; unfold from_slice.
  all: open_header; rewrite ?Hd; cbv zeta; bind_split.
  all: match goal with |- context [lenN ?b <? ?e] => destruct (lenN b <? e) eqn:Hsmall end; [reflexivity|]; bind_split.
  all: invert_checks; apply Hn; unfold HEADER_SIZE in *; lia.
Qed.

Lemma view_from_slice_agrees : agrees1 gen_view_from_slice view_from_slice.
Proof.
  pose proof decode_agrees as Hd.
  gen_start. all: intros bs; callee Hd; unfold view_from_slice.
  all: open_header; rewrite ?Hd; cbv zeta; bind_split.
  all: match goal with |- context [lenN ?b <? ?e] => destruct (lenN b <? e) eqn:Hsmall end; [reflexivity|]; bind_split.
Qed.

Lemma from_slice_exact_agrees : agrees1 gen_from_slice_exact from_slice_exact.
Proof.
  pose proof from_slice_agrees as Hf.
  gen_start. all: intros bs; callee Hf; unfold from_slice_exact; rewrite ?Hf.
  all: destruct (from_slice bs) as [m|e| |] eqn:Hm; cbn [bind]; try reflexivity.
  all: pose proof (from_slice_lens _ _ Hm) as Hlens.
  all: unfold add64, bind, HEADER_SIZE in *; cbv zeta; split_all; done.
Qed.

Lemma view_from_slice_exact_agrees : agrees1 gen_view_from_slice_exact view_from_slice_exact.
Proof.
  pose proof view_from_slice_agrees as Hf.
  gen_start. all: intros bs; callee Hf; unfold view_from_slice_exact; rewrite ?Hf.
  all: destruct (view_from_slice bs) as [m|e| |] eqn:Hm; cbn [bind]; try reflexivity.
  all: rewrite view_eq_owned in Hm; pose proof (from_slice_lens _ _ Hm) as Hlens.
  all: unfold add64, bind, HEADER_SIZE in *; cbv zeta; split_all; done.
Qed.

(** Header::encode: the code fills a zeroed 48-byte array field by field;
    [buf[o] = self.version] stores the u8 itself, the model writes [le_enc 1]. *)
Lemma le_enc_byte v : v < 256 -> le_enc 1 v = [v].
Proof. intros H. cbn [le_enc]. now rewrite N.mod_small. Qed.

(** Every list involved has a closed spine (a 48-byte buffer, [le_enc] at a closed width), so
    the whole rendering runs by evaluation, bounds checks included, and yields the same 48
    cells as [encode]. *)
Lemma encode_agrees :
  match gen_encode with
  | Some f => forall h, h_version h < 256 -> h_notify h < 256 -> f h = Ok (encode h)
  | None => True
  end.
Proof.
  gen_start. all: intros h Hv Hn; unfold encode.
  all: rewrite (le_enc_byte _ Hv), (le_enc_byte _ Hn); reflexivity.
Qed.

Lemma c01_source_translation :
  agrees1 gen_decode decode /\
  match gen_encode with
  | Some f => forall h, h_version h < 256 -> h_notify h < 256 -> f h = Ok (encode h)
  | None => True
  end /\
  match gen_msg_new with
  | Some f => forall h q b,
      f h q b = if HEADER_SIZE + lenN q + lenN b <? two64 then msg_new h q b else Panic
  | None => True
  end /\
  agrees1 gen_from_slice from_slice /\
  agrees1 gen_from_slice_exact from_slice_exact.
Proof.
  exact (conj decode_agrees (conj encode_agrees (conj msg_new_agrees (conj from_slice_agrees from_slice_exact_agrees)))).
Qed.

Lemma c02_source_translation :
  agrees1 gen_decode decode /\
  agrees1 gen_from_slice from_slice /\
  agrees1 gen_from_slice_exact from_slice_exact /\
  agrees1 gen_view_from_slice view_from_slice /\
  agrees1 gen_view_from_slice_exact view_from_slice_exact.
Proof.
  exact (conj decode_agrees (conj from_slice_agrees (conj from_slice_exact_agrees
        (conj view_from_slice_agrees view_from_slice_exact_agrees)))).
Qed.
