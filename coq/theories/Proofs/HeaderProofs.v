(** The facts about [encode] are proved for the table-driven encoder
    [encode_tbl] over an arbitrary table and offsets that are the running sum of
    its widths; [header_table] is put in at the last step ([encode_is_table],
    [layout_ok_tbl]).  [decode] is split into its eleven reads ([read_header])
    and the validation of the record read ([check_header]); [decode_spec] and
    the facts about accepted bytes are read off [check_header_ok]. *)
From RepeV Require Import Model.Header.
From Coq Require Import ZifyBool ZifyN ZifyNat.

Lemma field_eq bs o w : field bs o w = le_dec (firstn w (skipn o bs)).
Proof. unfold field. now rewrite slice_add. Qed.

Lemma field_firstn bs n off w : (off + w <= n)%nat -> field (firstn n bs) off w = field bs off w.
Proof. intros H. rewrite !field_eq, skipn_firstn_comm, firstn_firstn. do 2 f_equal. lia. Qed.

Lemma field_app_l x y off w : (off + w <= length x)%nat -> field (x ++ y) off w = field x off w.
Proof.
  intros H. rewrite !field_eq, skipn_app, firstn_app, skipn_length.
  replace (w - (length x - off))%nat with 0%nat by lia. now rewrite firstn_O, app_nil_r.
Qed.

Lemma field_mid pre w v post : field (pre ++ le_enc w v ++ post) (length pre) w = v mod pow256 w.
Proof.
  unfold field. rewrite slice_mid; [apply le_dec_enc|reflexivity|now rewrite le_enc_length].
Qed.

Lemma field_enc bs off w :
  bytes_ok bs = true -> (off + w <= length bs)%nat ->
  field bs off w < pow256 w /\ le_enc w (field bs off w) = firstn w (skipn off bs).
Proof.
  intros Hb Hl. rewrite field_eq.
  pose proof (bytes_ok_firstn w _ (bytes_ok_skipn off _ Hb)) as Hs.
  assert (length (firstn w (skipn off bs)) = w) as L by (rewrite firstn_length, skipn_length; lia).
  split; [pose proof (le_dec_bound _ Hs) as H|pose proof (le_enc_dec _ Hs) as H]; now rewrite L in H.
Qed.

Definition tbl_ok (h : header) (bs : list byte) (o : nat) (tbl : list (nat * nat)) : bool :=
  forallb (fun '(o', w, i) => field bs o' w =? field_of i h) (offsets_of o tbl).

Definition tbl_fits (h : header) (tbl : list (nat * nat)) : bool :=
  forallb (fun '(i, w) => field_of i h <? pow256 w) tbl.

Section Table.
  Variable h : header.

  Lemma encode_tbl_length tbl : length (encode_tbl tbl h) = list_sum (map snd tbl).
  Proof.
    unfold encode_tbl. induction tbl as [|[i w] tbl IH]; cbn [map concat list_sum snd]; [reflexivity|].
    now rewrite app_length, le_enc_length, IH.
  Qed.

  Lemma encode_tbl_ok tbl : bytes_ok (encode_tbl tbl h) = true.
  Proof.
    unfold encode_tbl. induction tbl as [|[i w] tbl IH]; cbn [map concat]; [reflexivity|].
    now rewrite bytes_ok_app, le_enc_ok, IH.
  Qed.

  Lemma encode_tbl_layout rest tbl :
    tbl_fits h tbl = true -> forall pre,
    tbl_ok h (pre ++ encode_tbl tbl h ++ rest) (length pre) tbl = true.
  Proof.
    unfold tbl_ok, tbl_fits, encode_tbl.
    induction tbl as [|[i w] tbl IH]; intros Hfit pre; cbn [offsets_of forallb map concat] in *;
      [reflexivity|].
    apply andb_true_iff in Hfit as [Hi Hfit]. apply N.ltb_lt in Hi.
    rewrite <- app_assoc. apply andb_true_iff. split.
    - rewrite field_mid, N.mod_small by assumption. apply N.eqb_refl.
    - specialize (IH Hfit (pre ++ le_enc w (field_of i h))).
      now rewrite app_length, le_enc_length, <- app_assoc in IH.
  Qed.

  Lemma tbl_ok_encode bs tbl : bytes_ok bs = true -> forall o,
    (o + length (encode_tbl tbl h) <= length bs)%nat -> tbl_ok h bs o tbl = true ->
    tbl_fits h tbl = true /\ firstn (length (encode_tbl tbl h)) (skipn o bs) = encode_tbl tbl h.
  Proof.
    intros Hb. unfold tbl_ok, tbl_fits, encode_tbl.
    induction tbl as [|[i w] tbl IH]; intros o Hl H; cbn [offsets_of forallb map concat] in *;
      [now split|].
    apply andb_true_iff in H as [E H]. apply N.eqb_eq in E.
    rewrite app_length, le_enc_length, Nat.add_assoc in Hl.
    destruct (IH _ Hl H) as [F S].
    destruct (field_enc bs o w Hb (Nat.le_trans _ _ _ (Nat.le_add_r _ _) Hl)) as [B Enc].
    rewrite <- E, F, (proj2 (N.ltb_lt _ _) B), app_length, le_enc_length, firstn_plus, <- skipn_plus.
    now rewrite S, Enc.
  Qed.
End Table.

Lemma encode_is_table h : encode h = encode_tbl header_table h.
Proof. reflexivity. Qed.

Lemma layout_ok_tbl h bs :
  layout_ok h bs = (48 <=? N.of_nat (length bs)) && tbl_ok h bs 0 header_table.
Proof. reflexivity. Qed.

Lemma encode_length h : length (encode h) = 48%nat.
Proof. exact (encode_tbl_length h header_table). Qed.

Lemma encode_ok h : bytes_ok (encode h) = true.
Proof. exact (encode_tbl_ok h header_table). Qed.

Lemma hdr_ok_fits h : hdr_ok h = tbl_fits h header_table.
Proof. unfold hdr_ok. cbn [tbl_fits header_table forallb field_of]. now rewrite andb_true_r, !andb_assoc. Qed.

Definition read_header (bs : list byte) : header :=
  mkHeader (field bs 0 8) (field bs 8 2) (field bs 10 1) (field bs 11 1) (field bs 12 4)
    (field bs 16 8) (field bs 24 8) (field bs 32 8) (field bs 40 2) (field bs 42 2)
    (field bs 44 4).

Lemma header_eqb_eq a b : header_eqb a b = true <-> a = b.
Proof.
  split.
  - destruct a, b. unfold header_eqb. cbn. intros H.
    repeat (apply andb_true_iff in H as [H ?E]).
    apply N.eqb_eq in H, E, E0, E1, E2, E3, E4, E5, E6, E7, E8. now subst.
  - intros ->. unfold header_eqb. now rewrite !N.eqb_refl.
Qed.

Lemma leb_48 n : (48 <=? N.of_nat n) = true <-> (48 <= n)%nat.
Proof. rewrite N.leb_le. lia. Qed.

Lemma andb_folds l : fold_left andb l true = fold_right andb true l.
Proof. apply fold_symmetric; [apply andb_assoc|intros b; now rewrite andb_true_r]. Qed.

(** the layout oracle compares [h] field by field with what [decode] reads:
    [header_eqb] and [forallb] are the two folds of the same eleven tests *)
Lemma layout_ok_eqb h bs :
  layout_ok h bs = (48 <=? N.of_nat (length bs)) && header_eqb (read_header bs) h.
Proof.
  unfold layout_ok. f_equal. symmetry.
  exact (andb_folds (map (fun '(o, w, get) => field bs o w =? get h) layout)).
Qed.

Lemma layout_ok_fields h bs :
  layout_ok h bs = true <-> (48 <= length bs)%nat /\ h = read_header bs.
Proof.
  rewrite layout_ok_eqb, andb_true_iff, leb_48, header_eqb_eq. split; intros [Hl E]; now split.
Qed.

(** What a successful decode means, with the sum taken in N (no wrap). *)
Definition decode_spec (bs : list byte) (h : header) : Prop :=
  (48 <= length bs)%nat /\
  h = mkHeader (field bs 0 8) (field bs 8 2) (field bs 10 1) (field bs 11 1) (field bs 12 4)
        (field bs 16 8) (field bs 24 8) (field bs 32 8) (field bs 40 2) (field bs 42 2)
        (field bs 44 4) /\
  h_spec h = REPE_SPEC /\
  h_length h = HEADER_SIZE + h_qlen h + h_blen h /\
  h_length h < two64.

Definition check_header (n : nat) (h : header) : outcome header :=
  if N.of_nat n <? HEADER_SIZE then Err EHeaderLen else
  if negb (h_spec h =? REPE_SPEC) then Err ESpec else
  match match checked_add64 HEADER_SIZE (h_qlen h) with
        | Some n => checked_add64 n (h_blen h)
        | None => None
        end with
  | Some e => if e =? h_length h then Ok h else Err ELenMismatch
  | None => Err ELenMismatch
  end.

Lemma decode_eq bs : decode bs = check_header (length bs) (read_header bs).
Proof. reflexivity. Qed.

Lemma checked_add64_3 a b c :
  match checked_add64 a b with Some n => checked_add64 n c | None => None end
  = if a + b + c <? two64 then Some (a + b + c) else None.
Proof.
  unfold checked_add64.
  destruct (a + b <? two64) eqn:E1, (a + b + c <? two64) eqn:E2; try reflexivity. exfalso; lia.
Qed.

Lemma check_header_ok n h h' :
  check_header n h = Ok h' <->
  (48 <= n)%nat /\ h' = h /\ h_spec h' = REPE_SPEC /\
  h_length h' = HEADER_SIZE + h_qlen h' + h_blen h' /\ h_length h' < two64.
Proof.
  unfold check_header. rewrite checked_add64_3. split.
  - destruct (N.ltb_spec (N.of_nat n) HEADER_SIZE) as [|Hn]; [discriminate|].
    destruct (N.eqb_spec (h_spec h) REPE_SPEC) as [Hs|]; cbn [negb]; [|discriminate].
    destruct (N.ltb_spec (HEADER_SIZE + h_qlen h + h_blen h) two64) as [Hlt|]; [|discriminate].
    destruct (N.eqb_spec (HEADER_SIZE + h_qlen h + h_blen h) (h_length h)) as [Hl|]; [|discriminate].
    intros [= <-]. rewrite <- Hl. repeat split; try assumption. unfold HEADER_SIZE in Hn. lia.
  - intros (Hn & -> & Hs & Hl & Hlt).
    rewrite Hs, <- Hl, (proj2 (N.ltb_lt _ _) Hlt), !N.eqb_refl.
    replace (N.of_nat n <? HEADER_SIZE) with false by (unfold HEADER_SIZE; lia). reflexivity.
Qed.

(** [decode_spec bs h] is the right-hand side of [check_header_ok] at
    [read_header bs], written out *)
Lemma decode_ok_spec bs h : decode bs = Ok h -> decode_spec bs h.
Proof. rewrite decode_eq. apply check_header_ok. Qed.

Lemma decode_spec_ok bs h : decode_spec bs h -> decode bs = Ok h.
Proof. rewrite decode_eq. apply check_header_ok. Qed.

Lemma decode_spec_sum bs h :
  decode_spec bs h ->
  (48 <= length bs)%nat /\ h_length h = HEADER_SIZE + h_qlen h + h_blen h /\ h_length h < two64.
Proof. intros (H48 & _ & _ & Hl & Hlt). auto. Qed.

Lemma decode_layout_ok bs h : decode bs = Ok h -> layout_ok h bs = true.
Proof.
  intros D. apply decode_ok_spec in D as (Hlen & E & _).
  exact (proj2 (layout_ok_fields h bs) (conj Hlen E)).
Qed.

Lemma read_header_app x y : (48 <= length x)%nat -> read_header (x ++ y) = read_header x.
Proof. intros H. unfold read_header. now rewrite !field_app_l by lia. Qed.

Lemma decode_app_ok x y h : decode x = Ok h -> decode (x ++ y) = Ok h.
Proof.
  rewrite !decode_eq. intros D. apply check_header_ok in D as (Hn & -> & D).
  apply check_header_ok. rewrite (read_header_app x y Hn), app_length.
  split; [exact (Nat.le_trans _ _ _ Hn (Nat.le_add_r _ _))|now split].
Qed.

Lemma decode_total bs : crashes (decode bs) = false.
Proof.
  rewrite decode_eq. unfold check_header. rewrite checked_add64_3.
  destruct (_ <? _); [reflexivity|]. destruct (negb _); [reflexivity|].
  destruct (_ <? _); [|reflexivity]. destruct (_ =? _); reflexivity.
Qed.

Section Fields.
  Variable h : header.
  Hypothesis Hok : hdr_ok h = true.

  Lemma encode_layout rest : layout_ok h (encode h ++ rest) = true.
  Proof.
    rewrite layout_ok_tbl, app_length, encode_length.
    pose proof Hok as Hfit. rewrite hdr_ok_fits in Hfit.
    apply andb_true_iff. split; [apply leb_48, Nat.le_add_r|].
    exact (encode_tbl_layout h rest header_table Hfit []).
  Qed.

  Lemma read_header_encode rest : read_header (encode h ++ rest) = h.
  Proof. symmetry. exact (proj2 (proj1 (layout_ok_fields _ _) (encode_layout rest))). Qed.

  Lemma f_spec rest : field (encode h ++ rest) 8 2 = h_spec h.
  Proof. exact (f_equal h_spec (read_header_encode rest)). Qed.
  Lemma f_qlen : field (encode h) 24 8 = h_qlen h.
  Proof. rewrite <- (app_nil_r (encode h)). exact (f_equal h_qlen (read_header_encode [])). Qed.
  Lemma f_blen : field (encode h) 32 8 = h_blen h.
  Proof. rewrite <- (app_nil_r (encode h)). exact (f_equal h_blen (read_header_encode [])). Qed.

  (** round trip: every field, including reserved bits and unknown format
      codes, survives *)
  Lemma decode_encode rest :
    h_spec h = REPE_SPEC ->
    h_length h = HEADER_SIZE + h_qlen h + h_blen h ->
    decode (encode h ++ rest) = Ok h.
  Proof.
    intros Hs Hl. rewrite decode_eq, read_header_encode. apply check_header_ok.
    rewrite app_length, encode_length. repeat split; try assumption; [apply Nat.le_add_r|].
    clear - Hok. unfold hdr_ok in Hok. lia.
  Qed.
End Fields.

(** the layout oracle pins the bytes: anything it accepts for [h] starts with
    [encode h] (so the oracle is as strong as byte equality on the header) *)
Lemma layout_ok_pins h bs :
  bytes_ok bs = true -> layout_ok h bs = true -> hdr_ok h = true /\ firstn 48 bs = encode h.
Proof.
  intros Hb H. rewrite layout_ok_tbl in H. apply andb_true_iff in H as [Hl H]. apply leb_48 in Hl.
  rewrite hdr_ok_fits. exact (tbl_ok_encode h bs header_table Hb 0 Hl H).
Qed.

Lemma decode_hdr_ok bs h : bytes_ok bs = true -> decode bs = Ok h -> hdr_ok h = true.
Proof. intros Hb D. now apply (layout_ok_pins h bs), decode_layout_ok. Qed.

(** one encoding: the accepted bytes are exactly the encoding of the result *)
Lemma encode_decode bs h : bytes_ok bs = true -> decode bs = Ok h -> firstn 48 bs = encode h.
Proof. intros Hb D. now apply (layout_ok_pins h bs), decode_layout_ok. Qed.
