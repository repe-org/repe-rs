(** The BEVE numeric-array model (Model/Beve.v).  Every wire form is a header,
    the SIZE and the little-endian element block; every reader checks its
    header and then does the same sized read ([read_sized_ok]; the aligned parse
    carries its own copy of the bounds checks).  The theorems put these two
    facts together, form by form and reader by reader.

    The bit fields of tag bytes are read off once, on variables, by uniqueness
    of Euclidean division ([divmod_pack]); [lia] only ever sees linear goals. *)
From RepeV Require Import Model.Beve Proofs.MessageProofs.

Lemma firstn_app_len {A} (a b : list A) n : length a = n -> firstn n (a ++ b) = a.
Proof. intros <-. apply firstn_app_exact. Qed.

Lemma skipn_app_len {A} (a b : list A) n : length a = n -> skipn n (a ++ b) = b.
Proof. intros <-. apply skipn_app_exact. Qed.

Lemma lenN_le_enc w n : lenN (le_enc w n) = N.of_nat w.
Proof. unfold lenN. now rewrite le_enc_length. Qed.

Lemma divmod_pack q r b : r < b -> (q * b + r) / b = q /\ (q * b + r) mod b = r.
Proof.
  intros H. assert (E : q * b + r = b * q + r) by now rewrite N.mul_comm.
  split; symmetry; [exact (N.div_unique _ b q r H E)|exact (N.mod_unique _ b q r H E)].
Qed.

(** the three bit fields of a tag byte: [r] in bits 0-2, [k] in bits 3-4, [c] above *)
Lemma tag_fields c k r : k < 4 -> r < 8 ->
  (c * 32 + k * 8 + r) mod 8 = r /\ ((c * 32 + k * 8 + r) / 8) mod 4 = k /\
  (c * 32 + k * 8 + r) / 32 = c.
Proof.
  intros Hk Hr. split; [|split].
  - replace (c * 32 + k * 8 + r) with ((c * 4 + k) * 8 + r) by ring. now apply divmod_pack.
  - replace (c * 32 + k * 8 + r) with ((c * 4 + k) * 8 + r) by ring.
    rewrite (proj1 (divmod_pack _ _ 8 Hr)). now apply divmod_pack.
  - rewrite <- N.add_assoc. apply divmod_pack. lia.
Qed.

(** the four widths: tag [c], [k] tail bytes, and what fits in them *)
Lemma size_enc_spec n : exists c k,
  size_enc n = (n mod 64 * 4 + c) :: le_enc k (n / 64) /\
  c < 4 /\ size_tail c = k /\ size_len n = 1 + N.of_nat k /\ (n < SIZE_MAX -> n < 64 * pow256 k).
Proof.
  unfold size_enc, size_code, size_len.
  (* the thresholds of [size_code] are [64 * pow256 k] for k = 0, 1, 3, and [SIZE_MAX] is
     [64 * pow256 7]: up to computation the bound is the branch's own test, or the hypothesis *)
  destruct (N.ltb_spec n 64); [|destruct (N.ltb_spec n 16384); [|destruct (N.ltb_spec n 1073741824)]];
    do 2 eexists; repeat split; try reflexivity; intros; assumption.
Qed.

Lemma size_enc_length n : lenN (size_enc n) = size_len n.
Proof.
  destruct (size_enc_spec n) as (c & k & -> & _ & _ & -> & _).
  now rewrite lenN_cons, lenN_le_enc.
Qed.

Lemma size_dec_cons b0 tl rest : length tl = size_tail (b0 mod 4) ->
  size_dec (b0 :: tl ++ rest) = Some (b0 / 4 + 64 * le_dec tl, rest).
Proof.
  intros Hl. unfold size_dec. rewrite <- Hl, app_length.
  rewrite (proj2 (Nat.ltb_ge _ _) (Nat.le_add_r (length tl) (length rest))).
  now rewrite firstn_app_exact, skipn_app_exact.
Qed.

Lemma size_roundtrip n rest : n < SIZE_MAX -> size_dec (size_enc n ++ rest) = Some (n, rest).
Proof.
  intros Hn. destruct (size_enc_spec n) as (c & k & -> & Hc & Hk & _ & Hb).
  destruct (divmod_pack (n mod 64) c 4 Hc) as [Hd Hm].
  cbn [app]. rewrite size_dec_cons by (rewrite Hm, Hk; apply le_enc_length).
  rewrite le_dec_enc_small by (apply N.div_lt_upper_bound; [discriminate|exact (Hb Hn)]).
  rewrite Hd, N.add_comm, <- N.div_mod by discriminate. reflexivity.
Qed.

Lemma size_enc_ok n : bytes_ok (size_enc n) = true.
Proof.
  destruct (size_enc_spec n) as (c & k & -> & Hc & _).
  rewrite bytes_ok_cons, le_enc_ok, andb_true_r.
  pose proof (N.mod_lt n 64) as Hr. generalize dependent (n mod 64). intros r Hr. lia.
Qed.

Lemma ety_ok_parts t : ety_ok t = true ->
  (0 < e_width t)%nat /\ (e_width t <= 16)%nat /\ e_class t < 3 /\ e_code t < 8 /\
  0 < e_align t /\ e_align t <= 16.
Proof. unfold ety_ok. intros H. lia. Qed.

Lemma ety_all_tags_distinct :
  forallb (fun t => forallb (fun u => implb (tag_eqb t u)
     ((e_width t =? e_width u)%nat && (e_align t =? e_align u))) ety_all) ety_all = true.
Proof. reflexivity. Qed.

(** the table check gives width and alignment; the tag gives class and code *)
Lemma ety_all_tag_inj t u : In t ety_all -> In u ety_all -> tag_eqb t u = true -> t = u.
Proof.
  intros Ht Hu E.
  pose proof (proj1 (forallb_forall _ _) (proj1 (forallb_forall _ _) ety_all_tags_distinct t Ht) u Hu) as D.
  cbn beta in D. rewrite E in D. apply andb_true_iff in D as [Hw Ha]. apply andb_true_iff in E as [Hk Hc].
  apply Nat.eqb_eq in Hw. apply N.eqb_eq in Ha, Hk, Hc.
  destruct t, u. cbn in *. congruence.
Qed.

Lemma tag_eqb_refl t : tag_eqb t t = true.
Proof. unfold tag_eqb. now rewrite !N.eqb_refl. Qed.

Lemma hdr_byte_fields t : ety_ok t = true ->
  hdr_byte t mod 8 = 4 /\ (hdr_byte t / 8) mod 4 = e_class t /\ hdr_byte t / 32 = e_code t.
Proof. intros H. apply ety_ok_parts in H. apply tag_fields; lia. Qed.

(** a numeric header is neither the generic-array tag nor the aligned marker *)
Lemma hdr_byte_kind t : ety_ok t = true -> hdr_byte t <> 5 /\ hdr_byte t <> ALIGNED_MARKER.
Proof. intros H. apply ety_ok_parts in H. unfold hdr_byte, ALIGNED_MARKER. lia. Qed.

Lemma check_hdr_hdr t u : ety_ok t = true ->
  check_hdr u (hdr_byte t) = if tag_eqb t u then None else Some BMismatch.
Proof.
  intros H. destruct (hdr_byte_fields t H) as (H1 & H2 & H3).
  unfold check_hdr. rewrite H1, H2, H3, <- negb_andb. fold (tag_eqb t u).
  now destruct (tag_eqb t u).
Qed.

Lemma payload_cons t x xs : payload t (x :: xs) = le_enc (e_width t) x ++ payload t xs.
Proof. reflexivity. Qed.

Lemma payload_app t xs ys : payload t (xs ++ ys) = payload t xs ++ payload t ys.
Proof. unfold payload. apply flat_map_app. Qed.

Lemma payload_length t xs : lenN (payload t xs) = N.of_nat (e_width t) * lenN xs.
Proof.
  induction xs as [|x xs IH]; [now rewrite N.mul_0_r|].
  rewrite payload_cons, lenN_app, lenN_le_enc, IH, lenN_cons. lia.
Qed.

Local Hint Rewrite @lenN_app @lenN_cons lenN_le_enc @lenN_repeat size_enc_length payload_length : lenN.

Lemma payload_ok t xs : bytes_ok (payload t xs) = true.
Proof.
  induction xs as [|x xs IH]; [reflexivity|].
  now rewrite payload_cons, bytes_ok_app, le_enc_ok, IH.
Qed.

Lemma chunks_dec_payload t xs rest : elems_ok t xs = true ->
  chunks_dec (e_width t) (N.to_nat (lenN xs)) (payload t xs ++ rest) = xs.
Proof.
  unfold lenN at 1. rewrite Nat2N.id. induction xs as [|x xs IH]; intros H; [reflexivity|].
  apply andb_true_iff in H as [Hx Hxs]. apply N.ltb_lt in Hx.
  cbn [length chunks_dec]. rewrite payload_cons, <- app_assoc.
  rewrite firstn_app_len, skipn_app_len by apply le_enc_length.
  now rewrite le_dec_enc_small, IH.
Qed.

Lemma slice_ok_parts t xs : slice_ok t xs = true ->
  ety_ok t = true /\ elems_ok t xs = true /\ lenN xs < SIZE_MAX /\
  lenN xs * N.of_nat (e_width t) < SIZE_MAX.
Proof. unfold slice_ok, len_ok. rewrite !andb_true_iff, !N.ltb_lt. tauto. Qed.

Lemma slice_ok_ety t xs : slice_ok t xs = true -> ety_ok t = true.
Proof. intros H. now apply slice_ok_parts in H. Qed.

(** a byte count in the codec's range passes the readers' [checked_mul] test *)
Lemma below_two64 n : n < SIZE_MAX -> (two64 <=? n) = false.
Proof. intros H. apply N.leb_gt, N.lt_trans with SIZE_MAX; [exact H|reflexivity]. Qed.

(** SIZE, then the block of [count] items of [per] scalars: what every reader
    does once it has accepted the header *)
Lemma read_sized_ok t per count xs rest :
  slice_ok t xs = true -> lenN xs = count * per -> 0 < per ->
  match size_dec (size_enc count ++ payload t xs ++ rest) with
  | None => DErr BEof
  | Some (c, r) => read_payload (e_width t) per c r
  end = DOk xs.
Proof.
  intros H Hl Hper. apply slice_ok_parts in H as (_ & He & Hn & Hp).
  assert (Hc : count <= lenN xs).
  { rewrite Hl, <- (N.mul_1_r count) at 1. apply N.mul_le_mono_l. lia. }
  rewrite size_roundtrip by (apply N.le_lt_trans with (lenN xs); assumption).
  unfold read_payload. rewrite N.mul_assoc, <- Hl.
  rewrite below_two64 by exact Hp.
  rewrite lenN_app, payload_length, (proj2 (N.ltb_ge _ _)) by lia.
  now rewrite chunks_dec_payload.
Qed.

Lemma read_typed_hdr_err u h tl e :
  check_hdr u h = Some e -> beve_read_typed_slice u (h :: tl) = DErr e.
Proof. intros H. unfold beve_read_typed_slice. now rewrite H. Qed.

Lemma beve_read_bulk t xs rest : slice_ok t xs = true ->
  beve_read_typed_slice t (enc_bulk t xs ++ rest) = DOk xs.
Proof.
  intros H. unfold enc_bulk, beve_read_typed_slice. cbn [app].
  rewrite check_hdr_hdr, tag_eqb_refl, <- app_assoc by exact (slice_ok_ety t xs H).
  apply read_sized_ok; [exact H|symmetry; apply N.mul_1_r|reflexivity].
Qed.

Lemma dec_generic_bulk t xs : slice_ok t xs = true -> dec_generic t (enc_bulk t xs) = DOk xs.
Proof.
  intros H. destruct (hdr_byte_fields t (slice_ok_ety t xs H)) as (H1 & H2 & H3).
  unfold enc_bulk, dec_generic.
  rewrite H1, H2, H3, !N.eqb_refl, <- (app_nil_r (payload t xs)). cbn [andb].
  apply read_sized_ok; [exact H|symmetry; apply N.mul_1_r|reflexivity].
Qed.

(** repe's wrapper differs from beve's reader on the generic empty array only *)
Lemma compat_not_empty t h tl : h <> 5 ->
  read_typed_slice_compat t (h :: tl) = beve_read_typed_slice t (h :: tl).
Proof.
  intros H. unfold read_typed_slice_compat, is_generic_empty. cbn [bytes_eqb].
  now rewrite (proj2 (N.eqb_neq h 5) H).
Qed.

Lemma compat_enc_bulk u t xs : ety_ok t = true ->
  read_typed_slice_compat u (enc_bulk t xs) = beve_read_typed_slice u (enc_bulk t xs).
Proof. intros H. apply compat_not_empty, hdr_byte_kind, H. Qed.

Lemma compat_bulk t xs : slice_ok t xs = true -> read_typed_slice_compat t (enc_bulk t xs) = DOk xs.
Proof.
  intros H. rewrite compat_enc_bulk, <- (app_nil_r (enc_bulk t xs)) by exact (slice_ok_ety t xs H).
  now apply beve_read_bulk.
Qed.

(** serde's [SeqSerializer], for any step function with its two equations:
    a non-empty sequence ends in the typed mode and has written the header
    followed by the items ([g] is the generic header, not written then) *)
Lemma ser_seq {A} step (g hdr : list byte) (enc : A -> list byte) :
  (forall acc x, step (SUnknown, acc) x = (STyped, enc x :: hdr :: acc)) ->
  (forall acc x, step (STyped, acc) x = (STyped, enc x :: acc)) ->
  forall x xs,
    let st := fold_left step (x :: xs) (SUnknown, []) in
    match fst st with
    | SUnknown => concat (rev (g :: snd st))
    | STyped => concat (rev (snd st))
    end = hdr ++ flat_map enc (x :: xs).
Proof.
  intros H0 H1 x xs st.
  assert (E : st = (STyped, rev (map enc xs) ++ [enc x; hdr])).
  { subst st. cbn [fold_left]. rewrite H0. generalize [enc x; hdr].
    induction xs as [|y ys IH]; intros acc; [reflexivity|].
    cbn [fold_left map rev]. now rewrite H1, IH, <- app_assoc. }
  rewrite E. cbn [fst snd]. now rewrite rev_app_distr, rev_involutive, flat_map_concat_map.
Qed.

Lemma enc_generic_nil t : enc_generic t [] = [5; 0].
Proof. reflexivity. Qed.

Lemma enc_generic_cons t x xs : enc_generic t (x :: xs) = enc_bulk t (x :: xs).
Proof.
  exact (ser_seq (ser_elem t _) _ (hdr_byte t :: size_enc _) (le_enc (e_width t))
           (fun _ _ => eq_refl) (fun _ _ => eq_refl) x xs).
Qed.

Lemma dec_generic_empty t : dec_generic t [5; 0] = DOk [].
Proof. reflexivity. Qed.

Lemma bulk_eq_generic t xs : xs <> [] -> enc_bulk t xs = enc_generic t xs.
Proof. destruct xs as [|x xs]; [congruence|]. intros _. now rewrite enc_generic_cons. Qed.

Lemma compat_generic t xs : slice_ok t xs = true -> read_typed_slice_compat t (enc_generic t xs) = DOk xs.
Proof.
  intros H. destruct xs as [|x xs]; [reflexivity|].
  rewrite enc_generic_cons. now apply compat_bulk.
Qed.

Lemma dec_generic_generic t xs : slice_ok t xs = true -> dec_generic t (enc_generic t xs) = DOk xs.
Proof.
  intros H. destruct xs as [|x xs]; [reflexivity|].
  rewrite enc_generic_cons. now apply dec_generic_bulk.
Qed.

(* [dec_bulk] is [read_typed_slice_compat] and [dec_aligned] is [beve_read_aligned] by
   definition: the reader lemmas apply to them by conversion *)
Lemma cross_decode t xs : slice_ok t xs = true ->
  dec_bulk t (enc_generic t xs) = DOk xs /\ dec_generic t (enc_bulk t xs) = DOk xs.
Proof. intros H. split; [now apply compat_generic|now apply dec_generic_bulk]. Qed.

Lemma sized_length (hdr : list byte) c t xs :
  lenN (hdr ++ size_enc c ++ payload t xs) = lenN hdr + size_len c + N.of_nat (e_width t) * lenN xs.
Proof. autorewrite with lenN. apply N.add_assoc. Qed.

Lemma sized_chunks_concat (hdr : list byte) c t xs :
  concat ([hdr; size_enc c] ++ match xs with [] => [] | _ => [payload t xs] end)
  = hdr ++ size_enc c ++ payload t xs.
Proof. destruct xs; cbn [app concat]; now rewrite !app_nil_r. Qed.

Lemma typed_slice_size_eq t xs : typed_slice_size t xs = lenN (enc_bulk t xs).
Proof. symmetry. apply (sized_length [hdr_byte t]). Qed.

Lemma complex_slice_size_eq t zs : complex_slice_size t zs = lenN (enc_complex t zs).
Proof. symmetry. apply (sized_length [CPLX_EXT; cplx_hdr t]). Qed.

(** the streaming writer, given a header that agrees with [m]'s outside the
    length fields, the three chunks and their closed-form length, puts [m]'s
    frame on the wire *)
Lemma streamed_sized h (hdr : list byte) c t xs m :
  m_body m = hdr ++ size_enc c ++ payload t xs ->
  m_hdr m = patch_lengths h (lenN (m_query m)) (lenN (m_body m)) ->
  concat (write_streaming_chunks h (m_query m)
            (lenN hdr + size_len c + N.of_nat (e_width t) * lenN xs)
            ([hdr; size_enc c] ++ match xs with [] => [] | _ => [payload t xs] end))
  = concat (write_chunks m).
Proof.
  intros Eb Eh. rewrite write_chunks_concat, <- sized_length, <- Eb.
  destruct m as [mh mq mb]. cbn [m_hdr m_query m_body] in *. subst mh.
  apply streaming_concat. rewrite Eb. apply sized_chunks_concat.
Qed.

Lemma streamed_typed h b t xs :
  m_hdr (build (body_typed_slice b t xs))
  = patch_lengths (set_bfmt h BODY_BEVE) (lenN (b_query b)) (lenN (enc_bulk t xs)) ->
  concat (stream_typed_slice h (b_query b) t xs) = concat (write_chunks (build (body_typed_slice b t xs))).
Proof. exact (streamed_sized _ [hdr_byte t] (lenN xs) t xs (build (body_typed_slice b t xs)) eq_refl). Qed.

Lemma padding_for_spec off a : 0 < a ->
  (off + 1 + padding_for off a) mod a = 0 /\ padding_for off a < a.
Proof.
  intros Ha. assert (Ha' : a <> 0) by lia. unfold padding_for.
  pose proof (N.mod_lt (off + 1) a Ha') as Hr.
  split; [|now apply N.mod_lt].
  rewrite N.add_mod, N.mod_mod by exact Ha'.
  generalize dependent ((off + 1) mod a). intros r Hr.
  destruct (N.eq_dec r 0) as [->|Hr0].
  - now rewrite N.sub_0_r, N.mod_same, N.mod_0_l.
  - rewrite (N.mod_small (a - r)) by lia.
    replace (r + (a - r)) with a by lia. now apply N.mod_same.
Qed.

Lemma aligned_pad_lt t base n : ety_ok t = true -> aligned_pad t base n < e_align t.
Proof. intros H. apply ety_ok_parts in H. apply padding_for_spec. lia. Qed.

Lemma aligned_data_aligned t base n : ety_ok t = true ->
  (base + aligned_data_off t base n) mod e_align t = 0.
Proof.
  intros H. apply ety_ok_parts in H. unfold aligned_data_off, aligned_pad.
  rewrite !N.add_assoc. apply padding_for_spec. lia.
Qed.

(** a frame that starts on a multiple of the alignment has its aligned body's
    element block on a multiple of the alignment: the borrow is served *)
Lemma aligned_frame_block_aligned t qlen m n : ety_ok t = true -> m mod e_align t = 0 ->
  (frame_addr qlen m + aligned_data_off t (HEADER_SIZE + qlen) n) mod e_align t = 0.
Proof.
  intros Ht Hm. assert (Ha : e_align t <> 0) by (apply ety_ok_parts in Ht; lia).
  unfold frame_addr. rewrite <- !N.add_assoc, N.add_mod, Hm, N.add_assoc by exact Ha.
  now rewrite aligned_data_aligned, N.mod_0_l.
Qed.

(** marker, numeric header, SIZE, PADLEN, padding, DATA *)
Lemma enc_aligned_app t base xs rest :
  enc_aligned t base xs ++ rest
  = ALIGNED_MARKER :: hdr_byte t :: size_enc (lenN xs) ++ aligned_pad t base (lenN xs) ::
    repeat 0 (N.to_nat (aligned_pad t base (lenN xs))) ++ payload t xs ++ rest.
Proof.
  unfold enc_aligned, aligned_pad, aligned_prefix. now rewrite lenN_app, size_enc_length, <- !app_assoc.
Qed.

Lemma aligned_size_eq t base xs :
  lenN (enc_aligned t base xs) = aligned_typed_slice_size t base xs.
Proof.
  rewrite <- (app_nil_r (enc_aligned t base xs)), enc_aligned_app, app_nil_r.
  unfold aligned_typed_slice_size. autorewrite with lenN. lia.
Qed.

(** the oracle locates the element block from the end of the body *)
Lemma aligned_block_off t base xs :
  lenN (enc_aligned t base xs) - N.of_nat (e_width t) * lenN xs = aligned_data_off t base (lenN xs).
Proof. rewrite aligned_size_eq. apply N.add_sub. Qed.

Lemma marker_ok :
  negb ((ALIGNED_MARKER mod 8 =? 4) && ((ALIGNED_MARKER / 8) mod 4 =? 3) && (ALIGNED_MARKER / 32 =? 2))
  = false.
Proof. reflexivity. Qed.

Lemma parse_aligned_enc t base xs rest : slice_ok t xs = true ->
  parse_aligned t (enc_aligned t base xs ++ rest)
  = DOk (aligned_data_off t base (lenN xs), lenN xs, payload t xs ++ rest).
Proof.
  intros H. apply slice_ok_parts in H as (Ht & _ & Hl & Hp).
  rewrite enc_aligned_app. unfold aligned_data_off.
  generalize (aligned_pad t base (lenN xs)). intros pad.
  unfold parse_aligned. rewrite marker_ok, check_hdr_hdr, tag_eqb_refl, size_roundtrip by assumption.
  rewrite skipn_app_len by apply repeat_length.
  (* the [lenN] rules by hand: [autorewrite] would try each of them all over the parser's goal *)
  rewrite !lenN_cons, !lenN_app, lenN_cons, !lenN_app, lenN_repeat, size_enc_length, payload_length, N2Nat.id.
  rewrite (proj2 (N.ltb_ge _ _)) by lia.
  rewrite below_two64 by exact Hp.
  rewrite (proj2 (N.ltb_ge _ _)) by lia.
  do 3 f_equal. lia.
Qed.

Lemma parse_aligned_enc0 t base xs : slice_ok t xs = true ->
  parse_aligned t (enc_aligned t base xs) = DOk (aligned_data_off t base (lenN xs), lenN xs, payload t xs).
Proof.
  intros H. rewrite <- (app_nil_r (enc_aligned t base xs)), parse_aligned_enc by exact H.
  now rewrite app_nil_r.
Qed.

Lemma read_aligned_enc t base xs rest : slice_ok t xs = true ->
  beve_read_aligned t (enc_aligned t base xs ++ rest) = DOk xs.
Proof.
  intros H. unfold beve_read_aligned. rewrite parse_aligned_enc by exact H.
  rewrite chunks_dec_payload; [reflexivity|now apply slice_ok_parts in H].
Qed.

Lemma bit_exact t xs : slice_ok t xs = true ->
  dec_bulk t (enc_bulk t xs) = DOk xs /\ dec_generic t (enc_generic t xs) = DOk xs /\
  (forall rest, beve_read_typed_slice t (enc_bulk t xs ++ rest) = DOk xs) /\
  (forall base rest, dec_aligned t (enc_aligned t base xs ++ rest) = DOk xs).
Proof.
  intros H. repeat split.
  - now apply compat_bulk.
  - now apply dec_generic_generic.
  - intros rest. now apply beve_read_bulk.
  - intros base rest. now apply read_aligned_enc.
Qed.

Lemma aligned_offset b t xs : slice_ok t xs = true ->
  let body := m_body (build (body_aligned_typed_slice b t xs)) in
  exists off, parse_aligned t body = DOk (off, lenN xs, payload t xs) /\
              (HEADER_SIZE + lenN (b_query b) + off) mod e_align t = 0.
Proof.
  intros H. cbn [build body_aligned_typed_slice m_body b_body b_query].
  exists (aligned_data_off t (HEADER_SIZE + lenN (b_query b)) (lenN xs)). split.
  - now apply parse_aligned_enc0.
  - apply aligned_data_aligned, (slice_ok_ety t xs H).
Qed.

(** the borrowing decode in terms of the parse: borrowed when DATA is aligned
    in memory, copied otherwise, the same elements either way *)
Lemma decode_ref_enc_aligned u addr t base xs :
  decode_ref_body u addr (enc_aligned t base xs)
  = match parse_aligned u (enc_aligned t base xs) with
    | DErr e => DErr e
    | DOk (off, count, data) =>
        DOk ((if (addr + off) mod e_align u =? 0 then SBorrowed else SOwned)
               (chunks_dec (e_width u) (N.to_nat count) data))
    end.
Proof.
  rewrite <- (app_nil_r (enc_aligned t base xs)), enc_aligned_app.
  unfold decode_ref_body, beve_read_aligned_ref, beve_read_aligned. rewrite N.eqb_refl.
  destruct (parse_aligned u _) as [[[off count] data]|e]; [|reflexivity].
  now destruct (_ =? 0).
Qed.

Lemma decode_ref_enc_bulk u addr t xs : ety_ok t = true ->
  decode_ref_body u addr (enc_bulk t xs) = dmap SOwned (read_typed_slice_compat u (enc_bulk t xs)).
Proof.
  intros Ht. unfold decode_ref_body, enc_bulk.
  now rewrite (proj2 (N.eqb_neq _ _) (proj2 (hdr_byte_kind t Ht))).
Qed.

Lemma decode_ref_aligned t base addr xs : slice_ok t xs = true ->
  decode_ref_body t addr (enc_aligned t base xs)
  = DOk (if (addr + aligned_data_off t base (lenN xs)) mod e_align t =? 0 then SBorrowed xs else SOwned xs).
Proof.
  intros H. rewrite decode_ref_enc_aligned, parse_aligned_enc0 by exact H.
  rewrite <- (app_nil_r (payload t xs)), chunks_dec_payload by now apply slice_ok_parts in H.
  now destruct (_ =? 0).
Qed.

Lemma decode_ref_bulk t addr xs : slice_ok t xs = true ->
  decode_ref_body t addr (enc_bulk t xs) = DOk (SOwned xs).
Proof. intros H. now rewrite decode_ref_enc_bulk, compat_bulk by first [exact H|exact (slice_ok_ety t xs H)]. Qed.

Lemma decode_ref_generic t addr xs : slice_ok t xs = true ->
  decode_ref_body t addr (enc_generic t xs) = DOk (SOwned xs).
Proof.
  intros H. destruct xs as [|x xs]; [reflexivity|].
  rewrite enc_generic_cons. now apply decode_ref_bulk.
Qed.

Lemma ref_same_elements t base addr xs : slice_ok t xs = true ->
  dmap si_elems (dec_ref t addr (enc_aligned t base xs)) = dec_aligned t (enc_aligned t base xs) /\
  dec_ref t addr (enc_aligned t base xs)
  = DOk (if (addr + aligned_data_off t base (lenN xs)) mod e_align t =? 0 then SBorrowed xs else SOwned xs) /\
  dec_ref t addr (enc_bulk t xs) = DOk (SOwned xs) /\
  dec_ref t addr (enc_generic t xs) = DOk (SOwned xs).
Proof.
  intros H. unfold dec_ref, dec_aligned.
  rewrite decode_ref_aligned, decode_ref_bulk, decode_ref_generic by exact H.
  rewrite <- (app_nil_r (enc_aligned t base xs)), read_aligned_enc by exact H.
  repeat split. now destruct (_ =? 0).
Qed.

Lemma aligned_frame_borrowed t (q : list byte) fa xs : slice_ok t xs = true -> fa mod e_align t = 0 ->
  dec_ref t (fa + HEADER_SIZE + lenN q) (enc_aligned t (HEADER_SIZE + lenN q) xs) = DOk (SBorrowed xs).
Proof.
  intros H Hfa. unfold dec_ref. rewrite decode_ref_aligned by exact H.
  pose proof (aligned_frame_block_aligned t (lenN q) fa (lenN xs) (slice_ok_ety t xs H) Hfa) as Hal.
  unfold frame_addr in Hal. now rewrite Hal.
Qed.

(** every reader stops at the numeric header *)
Lemma wrong_type_rejected t u xs base addr : ety_ok t = true -> tag_eqb t u = false ->
  dec_bulk u (enc_bulk t xs) = DErr BMismatch /\
  (xs <> [] -> dec_bulk u (enc_generic t xs) = DErr BMismatch) /\
  dec_aligned u (enc_aligned t base xs) = DErr BMismatch /\
  dec_ref u addr (enc_aligned t base xs) = DErr BMismatch /\
  dec_ref u addr (enc_bulk t xs) = DErr BMismatch.
Proof.
  intros Ht Hne.
  assert (C : check_hdr u (hdr_byte t) = Some BMismatch) by now rewrite check_hdr_hdr, Hne.
  assert (B : read_typed_slice_compat u (enc_bulk t xs) = DErr BMismatch).
  { rewrite compat_enc_bulk by exact Ht. now apply read_typed_hdr_err. }
  assert (P : parse_aligned u (enc_aligned t base xs) = DErr BMismatch).
  { rewrite <- (app_nil_r (enc_aligned t base xs)), enc_aligned_app.
    unfold parse_aligned. now rewrite marker_ok, C. }
  unfold dec_ref, dec_aligned, beve_read_aligned.
  rewrite decode_ref_enc_aligned, decode_ref_enc_bulk, P, B by exact Ht.
  repeat split; try exact B.
  intros Hx. now rewrite <- bulk_eq_generic.
Qed.

(** the aligned form is not a plain typed array of any element type: the
    marker reads as a typed-array header of class 3 *)
Lemma compat_aligned u t base xs : ety_ok u = true ->
  read_typed_slice_compat u (enc_aligned t base xs) = DErr BMismatch.
Proof.
  intros Hu. apply ety_ok_parts in Hu as (_ & _ & Hc & _).
  rewrite <- (app_nil_r (enc_aligned t base xs)), enc_aligned_app.
  rewrite compat_not_empty by discriminate.
  apply read_typed_hdr_err. unfold check_hdr.
  change (ALIGNED_MARKER mod 8) with 4. change ((ALIGNED_MARKER / 8) mod 4) with 3.
  now rewrite (proj2 (N.eqb_neq 3 (e_class u))) by lia.
Qed.

Lemma cplx_hdr_fields t : ety_ok t = true ->
  cplx_hdr t mod 2 = 1 /\ (cplx_hdr t / 8) mod 4 = e_class t /\ (cplx_hdr t / 32) mod 8 = e_code t.
Proof.
  intros H. apply ety_ok_parts in H as (_ & _ & Hk & Hc & _).
  destruct (tag_fields (e_code t) (e_class t) 1) as (_ & H2 & H3); [lia|reflexivity|].
  unfold cplx_hdr. rewrite H2, H3, (N.mod_small _ 8 Hc). repeat split.
  replace (e_code t * 32 + e_class t * 8 + 1) with ((e_code t * 16 + e_class t * 4) * 2 + 1) by ring.
  now apply divmod_pack.
Qed.

Lemma ext_ok : (CPLX_EXT mod 8 =? 6) && (CPLX_EXT / 8 =? 3) = true.
Proof. reflexivity. Qed.

Lemma cplx_count_spec zs : lenN zs mod 2 = 0 -> lenN zs = cplx_count zs * 2.
Proof. intros H. rewrite N.mul_comm. now apply N.div_exact. Qed.

Lemma complex_readers t zs : slice_ok t zs = true -> lenN zs mod 2 = 0 ->
  beve_read_complex_slice t (enc_complex t zs) = DOk zs /\ dec_generic_complex t (enc_complex t zs) = DOk zs.
Proof.
  intros H Hev. destruct (cplx_hdr_fields t (slice_ok_ety t zs H)) as (H1 & H2 & H3).
  unfold enc_complex, beve_read_complex_slice, dec_generic_complex.
  rewrite ext_ok, H1, H2, H3, !N.eqb_refl, <- (app_nil_r (payload t zs)). cbn [negb orb andb].
  split. all: apply read_sized_ok; [exact H|now apply cplx_count_spec|reflexivity].
Qed.

(** a complex body starts with the extension byte, so repe's wrapper hands it
    to beve's reader *)
Lemma read_complex_wrong t u zs : ety_ok t = true -> tag_eqb t u = false ->
  read_complex_slice_compat u (enc_complex t zs) = DErr BMismatch.
Proof.
  intros Ht Hne. destruct (cplx_hdr_fields t Ht) as (H1 & H2 & H3).
  change (read_complex_slice_compat u (enc_complex t zs))
    with (beve_read_complex_slice u (enc_complex t zs)).
  unfold enc_complex, beve_read_complex_slice.
  rewrite ext_ok, H1, H2, H3, <- negb_andb. fold (tag_eqb t u). now rewrite Hne.
Qed.

Lemma compat_complex u t zs : read_typed_slice_compat u (enc_complex t zs) = DErr BInvalidType.
Proof. reflexivity. Qed.

Lemma pairs_chunks_concat w n : forall zs, length zs = (2 * n)%nat ->
  flat_map (fun c => c) (pairs_chunks w zs) = flat_map (le_enc w) zs.
Proof.
  induction n as [|n IH]; intros zs H; destruct zs as [|re [|im zs]]; cbn [length] in H; try lia.
  - reflexivity.
  - cbn [pairs_chunks flat_map]. rewrite IH by lia. now rewrite <- app_assoc.
Qed.

Lemma enc_generic_complex_nil t : enc_generic_complex t [] = [5; 0].
Proof. reflexivity. Qed.

Lemma enc_generic_complex_cons t re im zs : lenN (re :: im :: zs) mod 2 = 0 ->
  enc_generic_complex t (re :: im :: zs) = enc_complex t (re :: im :: zs).
Proof.
  intros Hev. apply cplx_count_spec in Hev. unfold enc_complex, payload.
  rewrite <- (pairs_chunks_concat _ (N.to_nat (cplx_count (re :: im :: zs)))) by (unfold lenN in Hev; lia).
  exact (ser_seq (ser_cplx t _) _ (CPLX_EXT :: cplx_hdr t :: size_enc _) (fun c => c)
           (fun _ _ => eq_refl) (fun _ _ => eq_refl) _ (pairs_chunks (e_width t) zs)).
Qed.

Lemma complex_bit_exact t zs : slice_ok t zs = true -> lenN zs mod 2 = 0 ->
  (zs <> [] -> enc_complex t zs = enc_generic_complex t zs) /\
  read_complex_slice_compat t (enc_complex t zs) = DOk zs /\
  read_complex_slice_compat t (enc_generic_complex t zs) = DOk zs /\
  dec_generic_complex t (enc_complex t zs) = DOk zs /\
  dec_generic_complex t (enc_generic_complex t zs) = DOk zs.
Proof.
  intros H Hev.
  destruct (complex_readers t zs H Hev) as [R1 R2].
  destruct zs as [|re [|im zs]]; [now repeat split|discriminate|].
  rewrite enc_generic_complex_cons by exact Hev. now repeat split.
Qed.

Lemma streamed_complex h b t zs :
  m_hdr (build (body_complex_slice b t zs))
  = patch_lengths (set_bfmt h BODY_BEVE) (lenN (b_query b)) (lenN (enc_complex t zs)) ->
  concat (stream_complex_slice h (b_query b) t zs) = concat (write_chunks (build (body_complex_slice b t zs))).
Proof.
  exact (streamed_sized _ [CPLX_EXT; cplx_hdr t] (cplx_count zs) t zs (build (body_complex_slice b t zs)) eq_refl).
Qed.

Lemma is_ok_refl xs : is_ok xs (DOk xs) = true.
Proof. apply bytes_eqb_refl. Qed.

Lemma nil_or_eqb {A} (xs : list A) a b : (xs <> [] -> a = b) -> is_nil xs || bytes_eqb a b = true.
Proof. destruct xs; [reflexivity|]. intros ->; [apply bytes_eqb_refl|discriminate]. Qed.

Lemma si_elems_if (c : bool) xs : si_elems (if c then SBorrowed xs else SOwned xs) = xs.
Proof. now destruct c. Qed.

Lemma si_borrowed_if (c : bool) xs : si_borrowed (if c then SBorrowed xs else SOwned xs) = c.
Proof. now destruct c. Qed.

Local Hint Rewrite compat_bulk compat_generic dec_generic_bulk dec_generic_generic
  decode_ref_bulk decode_ref_aligned decode_ref_generic using assumption : roundtrip.
Local Hint Rewrite si_elems_if : roundtrip.

(** every live combination of client helper and echo route returns the
    original bit patterns, whatever the address of the receive buffer; the
    aligned form sent to the non-borrowing bulk route is an error.  Nothing is
    said of the aligned form sent to the serde route: [c08_wf] excludes that
    pairing, and its branch below is the call itself. *)
Lemma live_call_ok rk ck t qlen addr xs : slice_ok t xs = true ->
  live_call rk ck t qlen addr xs =
  match rk, ck with
  | RSlice, CAligned => DErr BRemote
  | RTyped, CAligned => live_call rk ck t qlen addr xs
  | _, _ => DOk xs
  end.
Proof.
  intros H. unfold live_call, client_body, route_slice, route_ref, route_typed.
  rewrite N.eqb_refl.
  (* the route reads the client's encoding with its decoder, answers in the serde encoding
     ([RTyped]) or the bulk one, and the client reads that with its own decoder: two rules of
     [roundtrip] per pairing *)
  destruct rk, ck; try reflexivity;
    autorewrite with roundtrip; cbn [dmap si_elems]; autorewrite with roundtrip; try reflexivity.
  now rewrite compat_aligned by exact (slice_ok_ety t xs H).
Qed.

Lemma wrong_format_rejected t u m : h_bfmt (m_hdr m) <> BODY_BEVE ->
  decode_typed_slice t m = DErr BFormat /\ decode_complex_slice u m = DErr BFormat /\
  route_slice t (h_bfmt (m_hdr m)) (m_body m) = DErr BRemote /\
  (forall addr, route_ref t (h_bfmt (m_hdr m)) addr (m_body m) = DErr BRemote).
Proof.
  intros H. apply N.eqb_neq in H.
  unfold decode_typed_slice, decode_complex_slice, route_slice, route_ref. rewrite H. now repeat split.
Qed.

Theorem ok_model_C08 c : c08_wf c = true -> ok_C08 c (model_C08 c) = true.
Proof.
  destruct c as [t xs q id|t u zs q id|t xs qlen m src|t u xs qlen m|t xs bfmt gen|rk ck t xs qlen];
    cbn [c08_wf model_C08 ok_C08 o_bytes o_res o_flags].
  - intros [[[H _]%andb_prop _]%andb_prop _]%andb_prop.
    rewrite (streamed_typed (hdr_new id) (req_builder id q)) by reflexivity.
    unfold decode_typed_slice, beve_body_vec.
    cbn [build body_typed_slice body_beve_vec req_builder m_hdr m_body h_bfmt b_bfmt b_body].
    rewrite N.eqb_refl, compat_bulk, compat_generic, dec_generic_bulk, dec_generic_generic by exact H.
    now rewrite (nil_or_eqb xs _ _ (bulk_eq_generic t xs)), !is_ok_refl, bytes_eqb_refl.
  - intros [[[[[[H _]%andb_prop Hne%negb_true_iff]%andb_prop Hev%N.eqb_eq]%andb_prop _]%andb_prop _]%andb_prop
              _]%andb_prop.
    destruct (complex_bit_exact t zs H Hev) as (B & R1 & R2 & R3 & R4).
    rewrite (streamed_complex (hdr_new id) (req_builder id q)) by reflexivity.
    unfold decode_complex_slice, decode_typed_slice.
    cbn [build body_complex_slice req_builder m_hdr m_body h_bfmt b_bfmt b_body].
    rewrite !N.eqb_refl, R1, R2, R3, R4, (read_complex_wrong t u zs (slice_ok_ety t zs H) Hne).
    rewrite compat_complex.
    now rewrite (nil_or_eqb zs _ _ B), !is_ok_refl, bytes_eqb_refl.
  - intros [[H _]%andb_prop _]%andb_prop. unfold route_ref. rewrite N.eqb_refl.
    destruct src; cbn [client_body];
      rewrite ?decode_ref_bulk, ?decode_ref_aligned, ?decode_ref_generic by exact H;
      cbn [dmap si_elems si_borrowed]; rewrite ?si_elems_if, compat_bulk, !is_ok_refl by exact H;
      try reflexivity.
    (* the bulk and serde bodies are read owned and are done; for the aligned body the flag is
       left: it is the alignment test at the block's offset, which the oracle takes from the end
       of the body, and which holds when the frame's offset [m] is a multiple of the alignment *)
    rewrite si_borrowed_if, aligned_block_off.
    destruct (N.eqb_spec (m mod e_align t) 0) as [Hm|_].
    + now rewrite (aligned_frame_block_aligned t qlen m (lenN xs) (slice_ok_ety t xs H) Hm).
    + now rewrite eqb_reflx.
  - intros [[[[H _]%andb_prop Hne%negb_true_iff]%andb_prop _]%andb_prop _]%andb_prop.
    destruct (wrong_type_rejected t u xs (HEADER_SIZE + qlen) (frame_addr qlen m) (slice_ok_ety t xs H) Hne)
      as (Wb & Wg & _ & Wra & Wrb).
    unfold dec_bulk, dec_ref in Wb, Wg, Wra, Wrb.
    unfold route_slice, route_ref. rewrite N.eqb_refl, Wb, Wra, Wrb.
    destruct xs as [|x xs]; [reflexivity|]. now rewrite Wg.
  - intros [[_ Hf%negb_true_iff]%andb_prop _]%andb_prop.
    unfold decode_typed_slice, decode_complex_slice, route_slice, route_ref.
    cbn [build m_hdr h_bfmt b_bfmt]. now rewrite Hf.
  - intros [[H _]%andb_prop Hx]%andb_prop. rewrite (live_call_ok rk ck t qlen 0 xs H).
    destruct rk, ck; try discriminate Hx; now rewrite ?is_ok_refl.
Qed.
