(** Agreement of the hand-written model (Model/Stream.v, Model/Condvar.v) with
    the Gallina rendering that bin/rs2v regenerates from /repo/src/stream.rs on
    every run (Gen/StreamGen.v).  A function that could not be translated is
    [None] and its lemma degrades to [True]; a function whose translation
    changed meaning breaks its lemma. *)
From RepeV Require Import Model.Condvar Proofs.StreamProofs Base.GenPrelude Gen.StreamGen.
From RepeV Require Export Proofs.GenAgreeBase.

(** how the Rust return values are named in the hand model *)
Definition out_of_resume (r : result N resume_rejection) : out :=
  match r with
  | ROk o => OResumeOk o
  | RErr RR_Cancelled => ORejCancelled
  | RErr (RR_WrongFileIndex a b) => ORejWrongFile a b
  | RErr RR_OutOfWindow => ORejOutOfWindow
  end.
Definition out_of_credit (r : result unit credit_error) : out :=
  match r with
  | ROk _ => OGranted
  | RErr (CE_Cancelled r) => OCreditCancelled r
  | RErr CE_Timeout => OCreditTimeout
  end.
Definition out_of_reconnect (r : reconnect_outcome) : out :=
  match r with
  | RO_ResumeReady o => OResumeReady o
  | RO_Cancelled r => OReconnCancelled r
  | RO_Timeout => OReconnTimeout
  end.
Definition wres_of_credit (r : result unit credit_error) : wresult :=
  match r with
  | ROk _ => WGranted
  | RErr (CE_Cancelled r) => WCancelled r
  | RErr CE_Timeout => WTimeout
  end.
Definition wres_of_reconnect (r : reconnect_outcome) : wresult :=
  match r with
  | RO_ResumeReady o => WResumeReady o
  | RO_Cancelled r => WCancelled r
  | RO_Timeout => WTimeout
  end.
Definition returned {A} (i : iter A) : bool := match i with Ret _ => true | Park => false end.
Definition iter_map {A B} (f : A -> B) (i : iter A) : option B :=
  match i with Ret a => Some (f a) | Park => None end.

(** A method body and its [step] clause ask the same questions about the same
    fields, in an order and with a polarity of their own, and then build a state field by field.
    Every agreement proof below writes the state out as a constructor, reduces the field updates
    on both sides, takes a case for each question, and compares the leaves. *)
(** the rendering's field updates and the projections, applied to a state written out *)
Ltac setters :=
  cbv [set_t_window set_t_sent set_t_acked set_t_file set_t_cancelled set_t_ring set_t_held set_t_cap
       set_t_peer set_t_pending
       t_window t_sent t_acked t_file t_cancelled t_ring t_held t_cap t_peer t_pending fst snd] in *.
(** the renderings of [is_some], [is_none], [is_some_and], [checked_add] and [==] on options *)
Ltac helpers := unfold opt_is_some, opt_is_none, opt_is_some_and, checked_add64, opt_eqb in *.
(** a leaf: the two sides are the same constructor term, or equal by arithmetic on one field, or
    the recorded answers are contradictory *)
Lemma ring_clear_agrees :
  agrees1 gen_ring_clear (fun s => mkTc (t_window s) (t_sent s) (t_acked s) (t_file s) (t_cancelled s) [] 0
                                        (t_cap s) (t_peer s) (t_pending s)).
Proof. gen_start. all: intros s; setters; done. Qed.

Lemma last_opt_last {A} (l : list A) a d : last_opt (l ++ [a]) = Some a /\ last (l ++ [a]) d = a.
Proof.
  induction l as [|x l IH]; [split; reflexivity|].
  destruct IH as [IH1 IH2]. cbn [app]. destruct (l ++ [a]) eqn:E; [destruct l; discriminate|].
  split; [exact IH1 | exact IH2].
Qed.

Lemma last_opt_spec {A} (l : list A) d : l <> [] -> last_opt l = Some (last l d).
Proof.
  intros H. destruct (exists_last H) as [l' [a ->]].
  destruct (last_opt_last l' a d) as [-> ->]. reflexivity.
Qed.

Lemma ring_highest_end_offset_agrees :
  agrees1 gen_ring_highest_end_offset
          (fun s => match t_ring s with [] => None | r => Some (ck_end (last r (mkChunk 0 0 false []))) end).
Proof.
  gen_start. all: intros s.
  all: destruct (t_ring s) as [|c r] eqn:E; [reflexivity|].
  all: rewrite (last_opt_spec (c :: r) (mkChunk 0 0 false [])) by discriminate; reflexivity.
Qed.

Lemma ring_covers_agrees : agrees2 gen_ring_covers (fun s o => covers (t_ring s) o).
Proof.
  pose proof ring_highest_end_offset_agrees as Hh. gen_start. all: intros s o; callee Hh.
  all: unfold covers; rewrite ?Hh.
  all: destruct (t_ring s) as [|c r]; cbn [list_is_empty]; [reflexivity|].
  all: destruct (existsb _ (c :: r)); cbn [orb opt_eqb]; reflexivity.
Qed.

Lemma ring_replay_from_agrees : agrees2 gen_ring_replay_from (fun s o => replay_from (t_ring s) o).
Proof. gen_start. all: intros s o; reflexivity. Qed.

Definition with_ring (s : tc) (r : list chunk) (h : N) : tc :=
  mkTc (t_window s) (t_sent s) (t_acked s) (t_file s) (t_cancelled s) r h (t_cap s) (t_peer s) (t_pending s).

Lemma while_evict (c : tc -> bool) (b : tc -> tc) :
  (forall s, c s = (t_cap s <? t_held s) && (1 <? N.of_nat (length (t_ring s)))) ->
  (forall s x r, t_ring s = x :: r -> b s = with_ring s r (t_held s - wire x)) ->
  forall n s, (length (t_ring s) <= n)%nat ->
  while_fuel n c b s = with_ring s (fst (evict (t_ring s) (t_held s) (t_cap s)))
                                   (snd (evict (t_ring s) (t_held s) (t_cap s))).
Proof.
  intros Hc Hb. induction n as [|n IH]; intros s Hlen; cbn [while_fuel].
  - destruct s as [w se ac fi ca ri he cp pe pd]. cbn [t_ring length] in Hlen.
    destruct ri; [reflexivity | cbn [length] in Hlen; lia].
  - rewrite Hc. destruct (t_ring s) as [|x [|y r]] eqn:E.
    + rewrite andb_false_r. cbn [evict fst snd]. unfold with_ring. rewrite <- E. apply eq_sym, tc_eta.
    + replace (1 <? N.of_nat (length [x])) with false by (cbn [length]; lia).
      rewrite andb_false_r. cbn [evict fst snd]. unfold with_ring. rewrite <- E. apply eq_sym, tc_eta.
    + replace (1 <? N.of_nat (length (x :: y :: r))) with true by (cbn [length]; lia).
      rewrite andb_true_r. rewrite evict_cons2.
      destruct (t_cap s <? t_held s) eqn:Ec.
      * rewrite (Hb s x (y :: r) E). rewrite IH.
        -- unfold with_ring. cbn [t_window t_sent t_acked t_file t_cancelled t_ring t_held t_cap t_peer t_pending]. reflexivity.
        -- unfold with_ring. cbn [t_ring]. cbn [length] in *. lia.
      * cbn [fst snd]. unfold with_ring. rewrite <- E. apply eq_sym, tc_eta.
Qed.

Lemma ring_push_agrees :
  agrees5 gen_ring_push (fun s off len lst body => ring_push s (mkChunk off len lst body)).
Proof.
  gen_start. all: intros s off len lst body; cbv zeta; rewrite ring_push_eq.
  all: erewrite while_evict;
    [ unfold with_ring, wire; setters; reflexivity
    | intros s0; helpers; setters; done
    | intros s0 x r E; unfold with_ring, wire; setters; rewrite ?E; cbn [hd_error tl]; setters; split_all; setters; done
    | setters; lia ].
Qed.

(** the fuel given to the loop was enough: on exit the loop test is false *)
Lemma ring_push_fuel_enough :
  match gen_ring_push with
  | Some f => forall s off len lst body,
      let s' := f s off len lst body in
      (t_cap s' <? t_held s') && (1 <? N.of_nat (length (t_ring s'))) = false
  | None => True
  end.
Proof.
  assert (He : forall ring held cap, (cap <? snd (evict ring held cap)) &&
                 (1 <? N.of_nat (length (fst (evict ring held cap)))) = false).
  { induction ring as [|x [|y r] IH]; intros held cap;
      [cbn [evict fst snd length]; lia | cbn [evict fst snd length]; lia |].
    rewrite evict_cons2. destruct (cap <? held) eqn:E; [apply IH|]. cbn [fst snd length]. lia. }
  pose proof ring_push_agrees as Ha. unfold agrees5 in Ha. by_agree Ha.
  all: subst s'; rewrite Ha, ring_push_eq.
  all: cbn [t_cap t_held t_ring]; apply He.
Qed.

(** each is one clause of [step], and its [notified] flag the same clause of [notifies] *)
Ltac crush s :=
  cbv zeta; unfold step, notifies; helpers; destruct s as [w se ac fi ca ri he cp pe pd]; setters;
  split_all; setters; done.

Lemma record_sent_agrees : agrees2 gen_record_sent (fun s n => (fst (step s (Sent n)), false)).
Proof. gen_start. all: intros s n; crush s. Qed.

Lemma record_ack_agrees :
  agrees3 gen_record_ack (fun s f n => (fst (step s (Ack f n)), notifies s (Ack f n))).
Proof. gen_start. all: intros s f n; crush s. Qed.

Lemma cancel_agrees : agrees2 gen_cancel (fun s r => (fst (step s (Cancel r)), notifies s (Cancel r))).
Proof. gen_start. all: intros s r; crush s. Qed.

Lemma advance_to_file_agrees : agrees2 gen_advance_to_file (fun s f => (fst (step s (Advance f)), true)).
Proof.
  pose proof ring_clear_agrees as Hc. gen_start. all: intros s f; callee Hc.
  all: destruct s as [w se ac fi ca ri he cp pe pd]; cbv zeta; setters; rewrite ?Hc; setters; done.
Qed.

Lemma set_peer_agrees : agrees2 gen_set_peer (fun s p => (fst (step s (SetPeer p)), false)).
Proof. gen_start. all: intros s p; crush s. Qed.

Lemma push_replay_agrees :
  agrees5 gen_push_replay (fun s off len lst body => (fst (step s (Push off len lst body)), false)).
Proof.
  pose proof ring_push_agrees as Hp. gen_start. all: intros s off len lst body; callee Hp.
  all: cbv zeta; rewrite ?Hp; reflexivity.
Qed.

Lemma replay_chunks_from_agrees :
  agrees2 gen_replay_chunks_from (fun s n => (s, replay_from (t_ring s) n, false)).
Proof.
  pose proof ring_replay_from_agrees as Hr. gen_start. all: intros s n; callee Hr.
  all: cbv zeta; rewrite ?Hr; reflexivity.
Qed.

Lemma replay_chunks_from_step :
  match gen_replay_chunks_from with
  | Some f => forall s n, let '(s', cs, nt) := f s n in (s', OChunks cs, nt) = (step s (Replay n), false)
  | None => True
  end.
Proof.
  pose proof replay_chunks_from_agrees as Ha. unfold agrees2 in Ha. by_agree Ha.
Qed.

Lemma request_resume_agrees :
  match gen_request_resume with
  | Some f => forall s p fi n,
      let '(s', r, nt) := f s p fi n in
      (s', out_of_resume r, nt) = (step s (Resume p fi n), notifies s (Resume p fi n))
  | None => True
  end.
Proof.
  pose proof ring_covers_agrees as Hc. gen_start. all: intros s p fi n; callee Hc.
  all: cbv zeta; rewrite ?Hc; unfold step, notifies; helpers.
  all: destruct s as [w se ac f0 ca ri he cp pe pd]; setters.
  all: destruct ca; destruct (N.eqb fi f0) eqn:Ef; destruct (covers ri n) eqn:Ecov; cbn [negb andb orb].
  all: split_all; setters; done.
Qed.

(** the two waiting methods are rendered as one iteration of their loop; [expired] = "now >= deadline" *)
(** a leaf here is a conjunction about the returned value: the translations of the result are
    computed, then each conjunct is as in [done] *)
Ltac finish :=
  cbn [returned iter_map out_of_credit out_of_reconnect wres_of_credit wres_of_reconnect orb andb negb fst snd];
  repeat split; intros; try reflexivity; try discriminate; try congruence; try lia.

Lemma wait_for_credit_expired :
  match gen_wait_for_credit with
  | Some f => forall s len, t_window s < two64 ->
      let '(s', i, nt) := f s len true in
      (s', iter_map out_of_credit i, nt) = (fst (step s (TryCredit len)), Some (snd (step s (TryCredit len))), false)
  | None => True
  end.
Proof.
  gen_start. all: intros s len Hw.
  all: cbv zeta; unfold step, credit_ok; helpers; destruct s as [w se ac fi ca ri he cp pe pd]; setters.
  all: cbn [t_window] in Hw; split_all; finish.
Qed.

Lemma wait_for_credit_iteration :
  match gen_wait_for_credit with
  | Some f => forall s len expired, t_window s < two64 ->
      let '(s', i, nt) := f s len expired in
      s' = s /\ nt = false /\ returned i = ready (WCredit len) s || expired /\
      (ready (WCredit len) s = true -> iter_map wres_of_credit i = Some (snd (waiter_return (WCredit len) s))) /\
      (ready (WCredit len) s = false -> i = if expired then Ret (RErr CE_Timeout) else Park)
  | None => True
  end.
Proof.
  gen_start. all: intros s len expired Hw.
  all: cbv zeta; unfold ready, waiter_return, credit_ok; helpers.
  all: destruct s as [w se ac fi ca ri he cp pe pd]; setters.
  all: cbn [t_window] in Hw; destruct expired; split_all; finish.
Qed.

Lemma wait_for_reconnect_expired :
  match gen_wait_for_reconnect with
  | Some f => forall s,
      let '(s', i, nt) := f s true in
      (s', iter_map out_of_reconnect i, nt) = (fst (step s TryReconnect), Some (snd (step s TryReconnect)), false)
  | None => True
  end.
Proof.
  gen_start. all: intros s.
  all: cbv zeta; unfold step; helpers; destruct s as [w se ac fi ca ri he cp pe pd]; setters.
  all: split_all; finish.
Qed.

Lemma wait_for_reconnect_iteration :
  match gen_wait_for_reconnect with
  | Some f => forall s expired,
      let '(s', i, nt) := f s expired in
      nt = false /\ returned i = ready WReconnect s || expired /\
      (ready WReconnect s = true ->
       exists v, i = Ret v /\ (s', wres_of_reconnect v) = waiter_return WReconnect s) /\
      (ready WReconnect s = false -> s' = s /\ i = if expired then Ret RO_Timeout else Park)
  | None => True
  end.
Proof.
  gen_start. all: intros s expired.
  all: cbv zeta; unfold ready, waiter_return, step; helpers.
  all: destruct s as [w se ac fi ca ri he cp pe pd]; setters.
  all: destruct expired; split_all; finish; eexists; split; reflexivity.
Qed.

Lemma notified_agrees :
  match gen_record_sent with Some f => forall s n, snd (f s n) = notifies s (Sent n) | None => True end /\
  match gen_record_ack with Some f => forall s fi n, snd (f s fi n) = notifies s (Ack fi n) | None => True end /\
  match gen_cancel with Some f => forall s r, snd (f s r) = notifies s (Cancel r) | None => True end /\
  match gen_advance_to_file with Some f => forall s fi, snd (f s fi) = notifies s (Advance fi) | None => True end /\
  match gen_request_resume with Some f => forall s p fi n, snd (f s p fi n) = notifies s (Resume p fi n) | None => True end /\
  match gen_push_replay with Some f => forall s off len lst body, snd (f s off len lst body) = notifies s (Push off len lst body) | None => True end /\
  match gen_set_peer with Some f => forall s p, snd (f s p) = notifies s (SetPeer p) | None => True end /\
  match gen_replay_chunks_from with Some f => forall s n, snd (f s n) = notifies s (Replay n) | None => True end.
Proof.
  pose proof record_sent_agrees as H1. pose proof record_ack_agrees as H2. pose proof cancel_agrees as H3.
  pose proof advance_to_file_agrees as H4. pose proof request_resume_agrees as H5.
  pose proof push_replay_agrees as H6. pose proof set_peer_agrees as H7. pose proof replay_chunks_from_agrees as H8.
  unfold agrees2, agrees3, agrees5 in *.
  split; [|split; [|split; [|split; [|split; [|split; [|split]]]]]].
  - by_agree H1.
  - by_agree H2.
  - by_agree H3.
  - by_agree H4.
  - by_agree H5. all: specialize (H5 s p fi n).
    all: match goal with |- snd ?x = _ => destruct x as [[s' r] nt] end; cbn [snd]; congruence.
  - by_agree H6.
  - by_agree H7.
  - by_agree H8.
Qed.
