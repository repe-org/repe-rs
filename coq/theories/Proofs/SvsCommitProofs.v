(** Proofs about the SVS commit model (C10).  Every in-process pull has one shape: create, steps
    that leave the destination alone, then the rename or the removal of the temp file, decided by
    [accepts] alone ([protocol_shape]).  Crash safety, the failure and success theorems and the
    oracle's verdict on the cases are read off that shape. *)
From RepeV Require Import Model.SvsCommit.
From RepeV Require Proofs.SvsProofs.
Local Open Scope nat_scope.

Lemma concat_repeat_nil {A} (k : nat) (s : list A) : concat (repeat [] k ++ [s]) = s.
Proof. induction k as [|k IH]; cbn [repeat app concat]; [apply app_nil_r|exact IH]. Qed.

(** [bytes_eqb] is Model/Svs.v's function of that name, defined again in Model/SvsCommit.v *)
Lemma bytes_eqb_eq a b : bytes_eqb a b = true <-> a = b.
Proof. split; [exact (SvsProofs.bytes_eqb_eq a b)|intros ->; exact (SvsProofs.bytes_eqb_refl b)]. Qed.

Lemma optb_eqb_eq a b : optb_eqb a b = true <-> a = b.
Proof.
  destruct a as [a|], b as [b|]; cbn [optb_eqb]; split; intros H; try reflexivity; try discriminate.
  - apply bytes_eqb_eq in H. now subst.
  - injection H as ->. now apply bytes_eqb_eq.
Qed.

Lemma optb_eqb_refl a : optb_eqb a a = true.
Proof. now apply optb_eqb_eq. Qed.

Lemma apply_steps_app l1 l2 s : apply_steps (l1 ++ l2) s = apply_steps l2 (apply_steps l1 s).
Proof. apply fold_left_app. Qed.

Lemma apply_steps_cons st l s : apply_steps (st :: l) s = apply_steps l (apply_step s st).
Proof. reflexivity. Qed.

Lemma dst_preserved l : forall s, ~ In SRename l -> f_dst (apply_steps l s) = f_dst s.
Proof.
  induction l as [|st l IH]; intros s H; [reflexivity|].
  rewrite apply_steps_cons, IH by (intros E; apply H; now right).
  destruct st; try reflexivity. destruct H. now left.
Qed.

Lemma rename_dec l : In SRename l \/ ~ In SRename l.
Proof.
  induction l as [|st l [IH|IH]]; [right; intros []|left; now right|].
  destruct st; try (right; intros [E|E]; [discriminate|contradiction]). left. now left.
Qed.

Definition quiet (st : step) : bool :=
  match st with SWrite _ | SFlush | SSync | SProbe _ => true | _ => false end.

Fixpoint writes_of (l : list step) : bytes :=
  match l with
  | [] => []
  | SWrite b :: r => b ++ writes_of r
  | _ :: r => writes_of r
  end.

Lemma writes_of_app a b : writes_of (a ++ b) = writes_of a ++ writes_of b.
Proof.
  induction a as [|st a IH]; [reflexivity|].
  destruct st; cbn [app writes_of]; try exact IH. rewrite IH. apply app_assoc.
Qed.

Lemma writes_of_map ws : writes_of (map SWrite ws) = concat ws.
Proof. induction ws as [|w ws IH]; cbn [map writes_of concat]; [reflexivity|now rewrite IH]. Qed.

Lemma quiet_map ws : forallb quiet (map SWrite ws) = true.
Proof. induction ws as [|w ws IH]; [reflexivity|exact IH]. Qed.

Lemma quiet_run l : forall d t, forallb quiet l = true ->
  apply_steps l (mkFs d (Some t)) = mkFs d (Some (t ++ writes_of l)).
Proof.
  induction l as [|st l IH]; intros d t H; [cbn [writes_of]; now rewrite app_nil_r|].
  apply andb_prop in H as [Hq Hl]. rewrite apply_steps_cons.
  destruct st; try discriminate Hq; cbn [apply_step f_dst f_tmp writes_of]; rewrite IH by exact Hl;
    [now rewrite app_assoc|reflexivity..].
Qed.

Lemma run_created Q s0 : forallb quiet Q = true ->
  apply_steps (SCreate :: SProbe PAfterCreate :: Q) s0 = mkFs (f_dst s0) (Some (writes_of Q)).
Proof. exact (quiet_run Q (f_dst s0) []). Qed.

Lemma created_no_rename Q : forallb quiet Q = true -> ~ In SRename (SCreate :: SProbe PAfterCreate :: Q).
Proof.
  intros Hq [E|[E|H]]; try discriminate. discriminate (proj1 (forallb_forall quiet Q) Hq _ H).
Qed.

(** the arithmetic of keeping the last [n] of [t] bytes *)
Lemma sub_sub_min n t : t - (t - n) = Nat.min n t.
Proof.
  destruct (Nat.le_ge_cases n t) as [H|H].
  - rewrite Nat.min_l by exact H. apply Nat.add_sub_eq_l, Nat.sub_add, H.
  - rewrite Nat.min_r, (proj2 (Nat.sub_0_le t n)) by exact H. apply Nat.sub_0_r.
Qed.

Lemma min_add_min n a b : Nat.min n (Nat.min n a + b) = Nat.min n (a + b).
Proof. rewrite <- Nat.add_min_distr_r, Nat.min_assoc, (Nat.min_l n (n + b)) by apply Nat.le_add_r. reflexivity. Qed.

Lemma hold_write_spec n hold buf : length hold <= n ->
  concat (fst (hold_write n hold buf)) ++ snd (hold_write n hold buf) = hold ++ buf /\
  length (snd (hold_write n hold buf)) = Nat.min n (length hold + length buf).
Proof.
  intros Hh. unfold hold_write. rewrite <- app_length.
  destruct (Nat.leb_spec n (length buf)) as [Hn|Hn]; cbn [fst snd].
  - rewrite concat_app, skipn_length, sub_sub_min. cbn [concat].
    rewrite app_nil_r, <- app_assoc, firstn_skipn, app_length.
    rewrite !Nat.min_l by (try apply (Nat.le_trans _ _ _ Hn), Nat.le_add_l; exact Hn).
    split; [|reflexivity]. f_equal. destruct hold; [reflexivity|apply app_nil_r].
  - destruct (Nat.ltb_spec n (length (hold ++ buf))) as [Hl|Hl]; cbn [fst snd concat].
    + rewrite app_nil_r, firstn_skipn, skipn_length, sub_sub_min. split; reflexivity.
    + split; [reflexivity|]. symmetry. apply Nat.min_r, Hl.
Qed.

Lemma hold_run_spec n writes : forall hold, length hold <= n ->
  concat (fst (hold_run n hold writes)) ++ snd (hold_run n hold writes) = hold ++ concat writes /\
  length (snd (hold_run n hold writes)) = Nat.min n (length hold + length (concat writes)).
Proof.
  induction writes as [|w r IH]; intros hold Hh; cbn [hold_run concat].
  - cbn [fst snd concat length app]. rewrite app_nil_r, Nat.add_0_r, Nat.min_r by exact Hh. split; reflexivity.
  - destruct (hold_write_spec n hold w Hh) as [W1 W2].
    destruct (hold_write n hold w) as [o h]. cbn [fst snd] in W1, W2.
    destruct (IH h) as [R1 R2]; [rewrite W2; apply Nat.le_min_l|].
    destruct (hold_run n h r) as [o' h']. cbn [fst snd] in *. split.
    + rewrite concat_app, <- app_assoc, R1, app_assoc, W1, <- app_assoc. reflexivity.
    + rewrite R2, W2, app_length, min_add_min, Nat.add_assoc. reflexivity.
Qed.

(** as stated in the property: from an empty hold, over any sequence of writes *)
Lemma trailer_hold_split n writes :
  concat (fst (hold_run n [] writes)) ++ snd (hold_run n [] writes) = concat writes /\
  length (snd (hold_run n [] writes)) = Nat.min n (length (concat writes)).
Proof. exact (hold_run_spec n writes [] (Nat.le_0_l n)). Qed.

Lemma trailer_hold_committed n writes : n <= length (concat writes) ->
  concat (fst (hold_run n [] writes)) = firstn (length (concat writes) - n) (concat writes) /\
  snd (hold_run n [] writes) = skipn (length (concat writes) - n) (concat writes).
Proof.
  intros Hn. destruct (trailer_hold_split n writes) as [H1 H2]. rewrite Nat.min_l in H2 by exact Hn.
  rewrite <- H1, app_length, H2, Nat.add_sub.
  split; symmetry; [apply firstn_app_exact|apply skipn_app_exact].
Qed.

Lemma short_stream_errors n writes :
  into_trailer_errors n (snd (hold_run n [] writes)) = (length (concat writes) <? n).
Proof.
  unfold into_trailer_errors. rewrite (proj2 (trailer_hold_split n writes)).
  destruct (Nat.ltb_spec (length (concat writes)) n) as [H|H].
  - rewrite Nat.min_r by apply Nat.lt_le_incl, H. apply Nat.ltb_lt, H.
  - rewrite Nat.min_l by exact H. apply Nat.ltb_irrefl.
Qed.

Lemma fill_quiet tr ps : forall hold, forallb quiet (fst (fill tr hold ps)) = true.
Proof.
  induction ps as [|c r IH]; intros hold; [reflexivity|]. cbn [fill].
  destruct (deliver tr hold c) as [ws h]. specialize (IH h). destruct (fill tr h r) as [st h'].
  cbn [fst forallb quiet andb] in *. now rewrite forallb_app, quiet_map.
Qed.

(** an empty chunk is not forwarded; passing it through [TrailerHold::write] would not change
    what reaches the file either *)
Lemma deliver_hold_write n hold c : length hold <= n ->
  concat (fst (deliver (Some n) hold c)) = concat (fst (hold_write n hold c)) /\
  snd (deliver (Some n) hold c) = snd (hold_write n hold c).
Proof.
  intros Hh. destruct c; [|split; reflexivity]. unfold deliver, hold_write. cbn [length].
  destruct n as [|n].
  - destruct hold; [split; reflexivity|inversion Hh].
  - cbn [Nat.leb]. rewrite app_nil_r, (proj2 (Nat.ltb_ge _ _) Hh). split; reflexivity.
Qed.

Lemma fill_hold_run n ps : forall hold, length hold <= n ->
  writes_of (fst (fill (Some n) hold ps)) = concat (fst (hold_run n hold ps)) /\
  snd (fill (Some n) hold ps) = snd (hold_run n hold ps).
Proof.
  induction ps as [|c r IH]; intros hold Hh; [split; reflexivity|]. cbn [fill hold_run].
  destruct (deliver_hold_write n hold c Hh) as [D1 D2]. destruct (hold_write_spec n hold c Hh) as [_ L].
  destruct (deliver (Some n) hold c) as [ws h], (hold_write n hold c) as [o h2]. cbn [fst snd] in *. subst h2.
  destruct (IH h) as [I1 I2]; [rewrite L; apply Nat.le_min_l|].
  destruct (fill (Some n) h r) as [st h'], (hold_run n h r) as [o' h2]. cbn [fst snd writes_of] in *.
  split; [|exact I2]. now rewrite writes_of_app, writes_of_map, concat_app, D1, I1.
Qed.

Lemma fill_none ps hold :
  writes_of (fst (fill None hold ps)) = concat ps /\ snd (fill None hold ps) = hold.
Proof.
  induction ps as [|c r [I1 I2]]; [split; reflexivity|]. cbn [fill].
  replace (deliver None hold c) with (match c with [] => [] | _ => [c] end, hold) by now destruct c.
  destruct (fill None hold r) as [st h']. cbn [fst snd writes_of concat] in *.
  split; [|exact I2]. rewrite writes_of_app, writes_of_map, I1. destruct c; cbn [concat]; now rewrite ?app_nil_r.
Qed.

(** the content a committed temp file holds *)
Definition stripped (tr : option nat) (l : bytes) : bytes :=
  match tr with Some n => firstn (length l - n) l | None => l end.

Definition short_for (tr : option nat) (l : bytes) : bool :=
  match tr with Some n => length l <? n | None => false end.

Lemma fill_summary tr ps :
  let r := fill tr [] ps in
  (match tr with Some n => into_trailer_errors n (snd r) | None => false end) = short_for tr (concat ps) /\
  (short_for tr (concat ps) = false -> writes_of (fst r) = stripped tr (concat ps)).
Proof.
  destruct tr as [n|]; cbn zeta; [|split; [reflexivity|intros _; apply fill_none]].
  destruct (fill_hold_run n ps [] (Nat.le_0_l n)) as [-> ->].
  split; [apply short_stream_errors|]. intros Hs. apply trailer_hold_committed, Nat.ltb_ge, Hs.
Qed.

Definition content (p : proto) : bytes := concat (pr_pieces p).

Definition accepts (p : proto) : bool :=
  pr_clean p && negb (short_for (pr_trailer p) (content p)) && negb (pr_reject p).

Lemma accepts_true p : accepts p = true ->
  pr_clean p = true /\ pr_reject p = false /\ short_for (pr_trailer p) (content p) = false.
Proof.
  unfold accepts. intros H. apply andb_prop in H as [H Hj]. apply andb_prop in H as [Hc Hs].
  now rewrite (proj1 (negb_true_iff _) Hj), (proj1 (negb_true_iff _) Hs).
Qed.

Lemma protocol_shape p : exists Q, forallb quiet Q = true /\
  (accepts p = true -> writes_of Q = stripped (pr_trailer p) (content p)) /\
  protocol p = ((SCreate :: SProbe PAfterCreate :: Q) ++ (if accepts p then [SRename; SProbe PAfterRename] else [SRemove]),
                if accepts p then ROk else RErr).
Proof.
  unfold protocol, accepts, content.
  pose proof (fill_quiet (pr_trailer p) (pr_pieces p) []) as Fq.
  destruct (fill_summary (pr_trailer p) (pr_pieces p)) as [Fs Fw]. cbn zeta in *.
  destruct (fill (pr_trailer p) [] (pr_pieces p)) as [fsteps held]. cbn [fst snd] in *.
  rewrite Fs. clear Fs. set (short := short_for _ _) in *.
  destruct (pr_clean p); cbn [negb andb].
  - destruct short; cbn [negb andb].
    + exists fsteps. split; [exact Fq|]. split; [discriminate|reflexivity].
    + destruct (pr_reject p); cbn [negb].
      * exists (fsteps ++ fin_steps). split; [now rewrite forallb_app, Fq|]. split; [discriminate|].
        cbn [app]. now rewrite <- app_assoc.
      * exists (fsteps ++ fin_steps ++ [SProbe PBeforeRename]). split; [now rewrite forallb_app, Fq|].
        split; [intros _; rewrite writes_of_app, app_nil_r; now apply Fw|].
        cbn [app]. now rewrite <- !app_assoc.
  - eexists (fsteps ++ SProbe PFetch :: _). split; [|split; [discriminate|cbn [app]; now rewrite <- app_assoc]].
    rewrite forallb_app, Fq. now destruct (pr_async p && pr_eof_clean p && negb short).
Qed.

Lemma protocol_res p : snd (protocol p) = if accepts p then ROk else RErr.
Proof. now destruct (protocol_shape p) as (Q & _ & _ & ->). Qed.

Lemma protocol_run p s0 :
  apply_steps (fst (protocol p)) s0 =
  if accepts p then mkFs (Some (stripped (pr_trailer p) (content p))) None else mkFs (f_dst s0) None.
Proof.
  destruct (protocol_shape p) as (Q & Hq & Hw & ->). cbn [fst].
  rewrite apply_steps_app, run_created by exact Hq.
  destruct (accepts p); [rewrite <- Hw|]; reflexivity.
Qed.

Lemma protocol_failure p s0 :
  snd (protocol p) = RErr -> apply_steps (fst (protocol p)) s0 = mkFs (f_dst s0) None.
Proof. rewrite protocol_res, protocol_run. now destruct (accepts p). Qed.

(** the last conjunct: all that a prefix with the rename can lack is the one probe after the rename *)
Lemma rename_in_prefix p pre suf : fst (protocol p) = pre ++ suf -> In SRename pre ->
  accepts p = true /\
  (forall s0, f_dst (apply_steps pre s0) = Some (stripped (pr_trailer p) (content p))) /\
  exists y, [SProbe PAfterRename] = y ++ suf.
Proof.
  destruct (protocol_shape p) as (Q & Hq & Hw & ->). cbn [fst]. intros E Hin.
  pose proof (created_no_rename Q Hq) as N.
  apply app_eq_app in E as [l [[E _]|[-> E]]]; [destruct N; rewrite E; apply in_or_app; now left|].
  apply in_app_or in Hin as [Hin|Hin]; [destruct (N Hin)|].
  assert (Ht : In SRename (l ++ suf)) by (apply in_or_app; now left). rewrite <- E in Ht.
  destruct (accepts p); [|destruct Ht as [D|[]]; discriminate D].
  destruct l as [|x y]; [destruct Hin|]. injection E as <- E.
  split; [reflexivity|]. split; [intros s0|now exists y].
  rewrite apply_steps_app, run_created, apply_steps_cons by exact Hq.
  rewrite dst_preserved; [now rewrite <- Hw|].
  intros H. assert (H' : In SRename (y ++ suf)) by (apply in_or_app; now left).
  rewrite <- E in H'. destruct H' as [H'|[]]. discriminate.
Qed.

(** crash anywhere: after any prefix of the steps the destination is the old
    content if the rename is not in the prefix, and the complete content if it is
    (which only a successful pull ever reaches) *)
Lemma protocol_crash_safe p pre suf s0 :
  fst (protocol p) = pre ++ suf ->
  (~ In SRename pre -> f_dst (apply_steps pre s0) = f_dst s0) /\
  (In SRename pre ->
     f_dst (apply_steps pre s0) = Some (stripped (pr_trailer p) (content p)) /\
     snd (protocol p) = ROk).
Proof.
  intros E. split; [apply dst_preserved|]. intros Hin.
  destruct (rename_in_prefix p pre suf E Hin) as (A & D & _).
  split; [apply D|now rewrite protocol_res, A].
Qed.

Lemma probe_eqb_eq a b : probe_eqb a b = true -> a = b.
Proof. destruct a, b; cbn [probe_eqb]; intros H; try reflexivity; discriminate. Qed.

Lemma cut_at_prefix p l : forall n pre, cut_at p n l = Some pre -> exists suf, l = pre ++ SProbe p :: suf.
Proof.
  induction l as [|st l IH]; intros n pre H; [discriminate|]. cbn [cut_at] in H.
  assert (R : forall m, option_map (cons st) (cut_at p m l) = Some pre ->
                        exists suf, st :: l = pre ++ SProbe p :: suf).
  { intros m E. destruct (cut_at p m l) as [pre'|] eqn:C; [|discriminate]. injection E as <-.
    destruct (IH _ _ C) as [suf ->]. now exists suf. }
  destruct (is_hit p st) eqn:Hh; [|exact (R n H)]. destruct n as [|[|n']]; [discriminate| |exact (R _ H)].
  injection H as <-. exists l. destruct st; try discriminate Hh. apply probe_eqb_eq in Hh. now subst.
Qed.

Lemma kill_after_rename pr p n pre :
  cut_at p n (fst (protocol pr)) = Some pre -> In SRename pre -> p = PAfterRename.
Proof.
  intros C Hin. destruct (cut_at_prefix _ _ _ _ C) as [suf E].
  destruct (rename_in_prefix pr pre _ E Hin) as (_ & _ & y & Ey).
  destruct y as [|a [|]]; try discriminate. now injection Ey.
Qed.

(** [c10_wf] is a conjunction of six conditions *)
Lemma and6 (a b c d e f : bool) : a && b && c && d && e && f = true ->
  a = true /\ b = true /\ c = true /\ d = true /\ e = true /\ f = true.
Proof. intros H. do 5 apply andb_prop in H as [H ?]. auto 6. Qed.

Lemma wf_chunk c : c10_wf c = true -> 1 <= N.to_nat (c_chunk c).
Proof. intros W. apply and6 in W as (W & _). apply N.leb_le in W. lia. Qed.

Lemma wf_wire c : c10_wf c = true -> c_comp c = false -> c_wire c = c_stream c.
Proof. intros W Hc. apply and6 in W as (_ & W & _). rewrite Hc in W. now apply bytes_eqb_eq. Qed.

Lemma wf_zst c : c10_wf c = true -> c_puller c = PuZstFile -> c_comp c = true.
Proof. intros W Hp. apply and6 in W as (_ & _ & W & _). now rewrite Hp in W. Qed.

Lemma wf_trailer0 c : c10_wf c = true -> has_trailer (c_puller c) = false -> c_trailer c = 0%N.
Proof. intros W Hp. apply and6 in W as (_ & _ & _ & W & _). rewrite Hp in W. now apply N.eqb_eq. Qed.

Lemma wf_value c : c10_wf c = true -> is_value (c_puller c) = true -> c_dst c = None.
Proof.
  intros W Hp. apply and6 in W as (_ & _ & _ & _ & _ & W). rewrite Hp in W. now destruct (c_dst c).
Qed.

(** the wire bytes are cut by the producer's [Svs.chunks_of], which loses nothing *)
Lemma wire_chunks_concat c : c10_wf c = true -> concat (wire_chunks c) = c_wire c.
Proof.
  intros W. unfold wire_chunks.
  pose proof (proj1 (SvsProofs.chunks_of_spec _ (c_wire c) (wf_chunk c W))) as E.
  (* Model/SvsCommit.v defines [chunks_of] again, with the body it has in Model/Svs.v: the two are convertible *)
  change (Svs.chunks_of ?n ?l) with (chunks_of n l) in E.
  destruct (chunks_of _ (c_wire c)); [|exact E]. cbn [concat] in *. now rewrite app_nil_r.
Qed.

Lemma nresp_pos c : 1 <= nresp c.
Proof. unfold nresp, wire_chunks. destruct (chunks_of _ _); cbn [length]; lia. Qed.

Lemma pieces_length c : length (pieces c) = nresp c.
Proof.
  unfold pieces. destruct (c_comp c && decompresses (c_puller c)); [|reflexivity].
  rewrite app_length, repeat_length. cbn [length]. pose proof (nresp_pos c). lia.
Qed.

Lemma pieces_concat c : c10_wf c = true ->
  concat (pieces c) = match c_puller c with PuZstFile => c_wire c | _ => c_stream c end.
Proof.
  intros W. unfold pieces.
  destruct (c_comp c) eqn:Hc; cbn [andb].
  - destruct (c_puller c) eqn:Hp; cbn [decompresses]; try apply concat_repeat_nil.
    now apply wire_chunks_concat.
  - rewrite (wire_chunks_concat c W), (wf_wire c W Hc). now destruct (c_puller c).
Qed.

Lemma recv_clean c : snd (recv c) = true ->
  fst (recv c) = nresp c /\
  match c_fault c with FProducer _ => False | FCut j => nresp c <= N.to_nat j | _ => True end.
Proof.
  unfold recv. destruct (c_fault c) as [|k|j| |p n]; cbn [fst snd]; try (intros _; split; [reflexivity|exact I]).
  - discriminate.
  - destruct (Nat.leb_spec (nresp c) (N.to_nat j)); cbn [fst snd]; [intros _; split; [reflexivity|assumption]|discriminate].
Qed.

Lemma clean_all_pieces c : snd (recv c) = true -> firstn (fst (recv c)) (pieces c) = pieces c.
Proof. intros Hc. apply firstn_all2. rewrite pieces_length, (proj1 (recv_clean c Hc)). apply le_n. Qed.

Lemma clean_must_fail c : snd (recv c) = true ->
  must_fail c =
  (has_verify (c_puller c) && match c_fault c with FReject => true | _ => false end)
  || (has_trailer (c_puller c) && (N.of_nat (length (c_stream c)) <? c_trailer c)%N).
Proof.
  intros Hc. destruct (recv_clean c Hc) as [_ Hf]. unfold must_fail. f_equal.
  destruct (c_fault c) as [|k|j| |p n]; rewrite ?andb_false_r, ?andb_true_r; try reflexivity; [destruct Hf|].
  apply N.ltb_ge. pose proof (nresp_pos c). lia.
Qed.

Lemma proto_of_fields c :
  pr_pieces (proto_of c) = firstn (fst (recv c)) (pieces c) /\
  pr_clean (proto_of c) = snd (recv c) /\
  pr_trailer (proto_of c) = (if has_trailer (c_puller c) then Some (N.to_nat (c_trailer c)) else None) /\
  pr_reject (proto_of c) = (has_verify (c_puller c) && match c_fault c with FReject => true | _ => false end).
Proof. unfold proto_of. destruct (recv c). repeat split. Qed.

Lemma ltb_to_nat_false l t : (l <? N.to_nat t) = false -> (N.of_nat l <? t)%N = false.
Proof. intros H. apply N.ltb_ge. apply Nat.ltb_ge in H. lia. Qed.

Lemma accepts_case c : c10_wf c = true -> is_value (c_puller c) = false -> accepts (proto_of c) = true ->
  stripped (pr_trailer (proto_of c)) (content (proto_of c)) = expected c /\ must_fail c = false.
Proof.
  intros W V A. apply accepts_true in A as (Hc & Hj & Hs). unfold content in *.
  destruct (proto_of_fields c) as (Fp & Fc & Ft & Fr). rewrite Fc in Hc.
  rewrite Fp, (clean_all_pieces c Hc), (pieces_concat c W), Ft in Hs |- *.
  rewrite (clean_must_fail c Hc), <- Fr, Hj. clear Fp Fc Ft Fr Hj Hc. unfold expected. revert Hs.
  destruct (c_puller c); try discriminate V; cbn [has_trailer stripped short_for orb andb]; intros Hs;
    (split; [reflexivity|]); try reflexivity; apply ltb_to_nat_false, Hs.
Qed.

Lemma file_inprocess_ok c : c10_wf c = true -> is_value (c_puller c) = false ->
  let s := apply_steps (fst (protocol (proto_of c))) (mkFs (c_dst c) (c_tmp c)) in
  ok_C10 c (mkObs (snd (protocol (proto_of c))) (f_dst s) (is_some (f_tmp s))) = true.
Proof.
  intros W V. cbn zeta. rewrite protocol_run, protocol_res. unfold ok_C10.
  destruct (accepts (proto_of c)) eqn:A; cbn [o_res o_dst o_tmp f_dst f_tmp is_some negb].
  - destruct (accepts_case c W V A) as [-> ->]. now rewrite optb_eqb_refl.
  - now rewrite optb_eqb_refl.
Qed.

Lemma file_killed_ok c p n pre :
  c10_wf c = true -> is_value (c_puller c) = false ->
  c_fault c = FKill p n ->
  cut_at p (N.to_nat n) (fst (protocol (proto_of c))) = Some pre ->
  let s := apply_steps pre (mkFs (c_dst c) (c_tmp c)) in
  ok_C10 c (mkObs RKilled (f_dst s) (is_some (f_tmp s))) = true.
Proof.
  intros W V F C. cbn zeta. unfold ok_C10. cbn [o_res o_dst o_tmp]. rewrite F.
  destruct (cut_at_prefix _ _ _ _ C) as [suf E].
  destruct (rename_dec pre) as [Hin|Hnin]; [|rewrite (dst_preserved pre _ Hnin), optb_eqb_refl; now destruct p].
  destruct (rename_in_prefix _ _ _ E Hin) as (A & -> & _).
  rewrite (proj1 (accepts_case c W V A)), optb_eqb_refl, orb_true_r.
  now rewrite (kill_after_rename _ _ _ _ C Hin).
Qed.

Lemma model_value_clean c : snd (recv c) = true ->
  model_value c = mkObs ROk (Some (concat (pieces c))) false.
Proof.
  intros Hc. unfold model_value. pose proof (clean_all_pieces c Hc) as Ep.
  destruct (recv c) as [r clean]. cbn [fst snd] in *. subst clean. rewrite Ep.
  now destruct (is_async (c_puller c)).
Qed.

Lemma model_value_truncated c : snd (recv c) = false -> model_value c = mkObs RErr None false.
Proof.
  intros Hc. unfold model_value. destruct (recv c) as [r clean]. cbn [snd] in Hc. subst clean.
  now destruct (is_async (c_puller c)).
Qed.

Lemma value_ok c : c10_wf c = true -> is_value (c_puller c) = true -> ok_C10 c (model_value c) = true.
Proof.
  intros W V. destruct (snd (recv c)) eqn:Hc.
  - rewrite (model_value_clean c Hc). unfold ok_C10. cbn [o_res o_dst o_tmp].
    rewrite (clean_must_fail c Hc), (pieces_concat c W). unfold expected.
    destruct (c_puller c); try discriminate V; cbn [has_verify has_trailer andb orb negb]; rewrite andb_true_r;
      apply optb_eqb_refl.
  - rewrite (model_value_truncated c Hc). unfold ok_C10. cbn [o_res o_dst o_tmp negb]. now rewrite (wf_value c W V).
Qed.

Lemma run_steps_cases c : run_steps c = protocol (proto_of c) \/
  exists p n pre, c_fault c = FKill p n /\
    cut_at p (N.to_nat n) (fst (protocol (proto_of c))) = Some pre /\ run_steps c = (pre, RKilled).
Proof.
  unfold run_steps. destruct (protocol (proto_of c)) as [steps res]. cbn [fst].
  destruct (c_fault c) as [| | | |p n]; auto.
  destruct (cut_at p (N.to_nat n) steps) as [pre|] eqn:C; [right; now exists p, n, pre|now left].
Qed.

Lemma not_killed_steps c : (forall p n, c_fault c <> FKill p n) -> run_steps c = protocol (proto_of c).
Proof. intros H. destruct (run_steps_cases c) as [E|(p & n & _ & F & _)]; [exact E|destruct (H p n F)]. Qed.

Lemma model_file_run c : let s := apply_steps (fst (run_steps c)) (mkFs (c_dst c) (c_tmp c)) in
  model_file c = mkObs (snd (run_steps c)) (f_dst s) (is_some (f_tmp s)).
Proof. unfold model_file. now destruct (run_steps c). Qed.

Lemma ok_model_C10 c : c10_wf c = true -> ok_C10 c (model_C10 c) = true.
Proof.
  intros W. unfold model_C10. destruct (is_value (c_puller c)) eqn:V; [now apply value_ok|].
  rewrite model_file_run. destruct (run_steps_cases c) as [E|(p & n & pre & F & C & E)]; rewrite E.
  - exact (file_inprocess_ok c W V).
  - exact (file_killed_ok c p n pre W V F C).
Qed.

Lemma case_failure c : is_value (c_puller c) = false ->
  o_res (model_C10 c) = RErr ->
  o_dst (model_C10 c) = c_dst c /\ o_tmp (model_C10 c) = false.
Proof.
  intros V. unfold model_C10. rewrite V, model_file_run.
  destruct (run_steps_cases c) as [E|(p & n & pre & _ & _ & E)]; rewrite E; [|discriminate].
  cbn [fst snd o_res o_dst o_tmp]. intros H. now rewrite (protocol_failure _ _ H).
Qed.

Lemma case_success c : c10_wf c = true -> is_value (c_puller c) = false ->
  o_res (model_C10 c) = ROk ->
  o_dst (model_C10 c) = Some (expected c) /\ o_tmp (model_C10 c) = false /\ must_fail c = false.
Proof.
  intros W V Hr. pose proof (ok_model_C10 c W) as H. unfold ok_C10 in H. rewrite Hr in H.
  apply andb_prop in H as [H H3]. apply andb_prop in H as [H1 H2].
  apply optb_eqb_eq in H2. repeat split; [exact H2|now destruct (o_tmp (model_C10 c))|now destruct (must_fail c)].
Qed.
