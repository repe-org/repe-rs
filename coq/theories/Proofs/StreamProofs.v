(** TransferControl and its ReplayRing (Model/Stream.v), C11 and C13.  [step] is
    taken apart into [next] (the state, one [match] per field) and [reply];
    what holds along a history is an invariant of [next], and each oracle's
    tracker (Model/C11.v) is a function of the state it follows. *)
From RepeV Require Import Model.C11.

Lemma last_app_ne {A} (l1 l2 : list A) d : l2 <> [] -> last (l1 ++ l2) d = last l2 d.
Proof.
  intros Hne. induction l1 as [|a l1 IH]; [reflexivity|].
  cbn [app]. destruct (l1 ++ l2) eqn:E.
  - apply app_eq_nil in E. destruct E as [_ E]. contradiction.
  - rewrite <- IH. reflexivity.
Qed.

Lemma last_cons2 {A} (a b : A) l d : last (a :: b :: l) d = last (b :: l) d.
Proof. reflexivity. Qed.

Lemma filter_all {A} (f : A -> bool) l : (forall x, In x l -> f x = true) -> filter f l = l.
Proof.
  induction l as [|a l IH]; intros H; [reflexivity|].
  cbn [filter]. rewrite (H a (or_introl eq_refl)). f_equal. apply IH. intros x Hx. apply H. now right.
Qed.

Lemma snoc_nonempty {A} (l : list A) a : l ++ [a] <> [].
Proof. intros E. apply app_eq_nil in E. destruct E as [_ E]. discriminate E. Qed.

(** reduces a field of [tc] or of a snapshot applied to a constructor, and nothing else *)
Ltac proj :=
  cbn [fst snd t_window t_sent t_acked t_file t_cancelled t_ring t_held t_cap t_peer t_pending
       n_sent n_acked n_cancel n_peer n_ring snap_of].

(** the two fields [ring_push] changes: the ring with [c] appended and then evicted down to the
    capacity, and the bytes it then holds *)
Definition pushed (s : tc) (c : chunk) : list chunk * N :=
  evict (t_ring s ++ [c]) (sat_add64 (t_held s) (wire c)) (t_cap s).

Lemma ring_push_eq s c :
  ring_push s c =
  mkTc (t_window s) (t_sent s) (t_acked s) (t_file s) (t_cancelled s)
       (fst (pushed s c)) (snd (pushed s c)) (t_cap s) (t_peer s) (t_pending s).
Proof. unfold ring_push, pushed. destruct (evict _ _ _); reflexivity. Qed.

Lemma tc_eta s :
  mkTc (t_window s) (t_sent s) (t_acked s) (t_file s) (t_cancelled s) (t_ring s) (t_held s)
       (t_cap s) (t_peer s) (t_pending s) = s.
Proof. destruct s; reflexivity. Qed.

(** whether [request_resume] goes through *)
Definition accepts (s : tc) (f n : N) : bool :=
  match t_cancelled s with
  | Some _ => false
  | None => (f =? t_file s) && covers (t_ring s) n
  end.

(** The state after [o], one small [match] per field: what an operation leaves
    alone is then plain to see (and holds by conversion). *)
Definition next (s : tc) (o : op) : tc :=
  mkTc (t_window s)
       (match o with
        | Sent n => if t_sent s <? n then n else t_sent s
        | Advance _ => 0
        | _ => t_sent s
        end)
       (match o with
        | Ack f n =>
            if (f =? t_file s) && (t_acked s <? N.min n (t_sent s)) then N.min n (t_sent s) else t_acked s
        | Advance _ => 0
        | Resume _ f n =>
            if accepts s f n && ((t_acked s <? n) && (n <=? t_sent s)) then n else t_acked s
        | _ => t_acked s
        end)
       (match o with Advance f => f | _ => t_file s end)
       (match o with
        | Cancel r => match t_cancelled s with None => Some r | c => c end
        | _ => t_cancelled s
        end)
       (match o with
        | Push off len lst body => fst (pushed s (mkChunk off len lst body))
        | Advance _ => []
        | _ => t_ring s
        end)
       (match o with
        | Push off len lst body => snd (pushed s (mkChunk off len lst body))
        | Advance _ => 0
        | _ => t_held s
        end)
       (t_cap s)
       (match o with
        | SetPeer p => Some p
        | Resume p f n => if accepts s f n then Some p else t_peer s
        | _ => t_peer s
        end)
       (match o with
        | Advance _ => None
        | Resume _ f n => if accepts s f n then Some n else t_pending s
        | TryReconnect => match t_cancelled s with None => None | Some _ => t_pending s end
        | _ => t_pending s
        end).

Definition reply (s : tc) (o : op) : out :=
  match o with
  | Resume _ f n =>
      if accepts s f n then OResumeOk n
      else match t_cancelled s with
           | Some _ => ORejCancelled
           | None => if f =? t_file s then ORejOutOfWindow else ORejWrongFile f (t_file s)
           end
  | TryCredit len =>
      match t_cancelled s with
      | Some r => OCreditCancelled r
      | None => if credit_ok s len then OGranted else OCreditTimeout
      end
  | TryReconnect =>
      match t_cancelled s with
      | Some r => OReconnCancelled r
      | None => match t_pending s with Some n => OResumeReady n | None => OReconnTimeout end
      end
  | Replay n => OChunks (replay_from (t_ring s) n)
  | _ => ONone
  end.

Lemma step_eq s o : step s o = (next s o, reply s o).
Proof.
  destruct o as [n|f n|f|p f n|r|off len lst body|p|len| |n]; cbn [step]; rewrite ?ring_push_eq;
    try reflexivity.
  (* what is left are the clauses with a branch that returns [s] itself: it is the constructor
     applied to its fields only once it is written out *)
  all: destruct s as [w se ac fi ca ri he cp pe pd]; unfold next, reply, accepts; proj.
  - destruct (f =? fi); reflexivity.
  - destruct ca; [reflexivity|]. destruct (f =? fi); [|reflexivity].
    destruct (covers ri n); reflexivity.
  - destruct ca; reflexivity.
  - destruct ca; reflexivity.
  - destruct ca; [reflexivity|]. destruct pd; reflexivity.
  - reflexivity.
Qed.

Lemma step_fst s o : fst (step s o) = next s o.
Proof. now rewrite step_eq. Qed.

Lemma exec_cons s o ops : exec s (o :: ops) = exec (next s o) ops.
Proof. unfold exec. cbn [fold_left]. now rewrite step_fst. Qed.

Lemma exec_nil s : exec s [] = s.
Proof. reflexivity. Qed.

Lemma run_cons s o ops : run s (o :: ops) = (reply s o, next s o) :: run (next s o) ops.
Proof. cbn [run]. now rewrite step_eq. Qed.

Lemma exec_invariant (P : tc -> Prop) :
  (forall s o, P s -> P (next s o)) -> forall ops s, P s -> P (exec s ops).
Proof.
  intros Hstep ops. apply fold_left_invariant. intros s o _. rewrite step_fst. apply Hstep.
Qed.

Lemma exec_cap ops : forall s, t_cap (exec s ops) = t_cap s.
Proof. intros s. now apply (exec_invariant (fun s' => t_cap s' = t_cap s)). Qed.

Lemma credit_step s o :
  t_acked s <= t_sent s ->
  match o with
  | Sent _ => t_acked (next s o) = t_acked s /\ t_sent s <= t_sent (next s o)
  | Advance _ => t_sent (next s o) = 0 /\ t_acked (next s o) = 0
  | Ack _ _ | Resume _ _ _ =>
      t_sent (next s o) = t_sent s /\ t_acked s <= t_acked (next s o) <= t_sent s
  | _ => t_sent (next s o) = t_sent s /\ t_acked (next s o) = t_acked s
  end.
Proof.
  intros H. destruct o as [n|f n|f|p f n|r|off len lst body|p|len| |n]; cbn [next t_sent t_acked];
    try (split; reflexivity).
  - destruct (t_sent s <? n) eqn:E; lia.
  - destruct (_ && _) eqn:E; lia.
  - destruct (_ && _) eqn:E; lia.
Qed.

Lemma step_acked_le_sent s o : t_acked s <= t_sent s -> t_acked (next s o) <= t_sent (next s o).
Proof. intros H. pose proof (credit_step s o H) as C. destruct o; cbv iota in C; lia. Qed.

Lemma acked_le_sent w c ops : t_acked (exec (init w c) ops) <= t_sent (exec (init w c) ops).
Proof.
  apply (exec_invariant (fun s => t_acked s <= t_sent s) step_acked_le_sent).
  cbn [init t_acked t_sent]. lia.
Qed.

Lemma stale_ack_no_credit s f n :
  t_acked s <= t_sent s -> (f <> t_file s \/ n <= t_acked s) -> fst (step s (Ack f n)) = s.
Proof.
  intros H Hs. cbn [step]. destruct (f =? t_file s) eqn:Ef; [|reflexivity].
  destruct (t_acked s <? N.min n (t_sent s)) eqn:El; cbn [fst]; [lia|apply tc_eta].
Qed.

(** below 2^64 the checked addition of [wait_for_credit] never fails *)
Lemma credit_ok_fits s len :
  t_window s < two64 ->
  credit_ok s len = (in_flight s =? 0) || (in_flight s + len <=? t_window s).
Proof. intros H. unfold credit_ok, in_flight. lia. Qed.

Lemma grant_iff s len :
  t_window s < two64 ->
  (step s (TryCredit len) = (s, OGranted) <->
   t_cancelled s = None /\ (in_flight s = 0 \/ in_flight s + len <= t_window s)).
Proof.
  intros Hw. cbn [step]. rewrite (credit_ok_fits s len Hw).
  destruct (t_cancelled s) as [r|].
  - split; [intros E; discriminate E|intros [E _]; discriminate E].
  - destruct ((in_flight s =? 0) || (in_flight s + len <=? t_window s)) eqn:E.
    + split; [intros _; split; [reflexivity|lia]|reflexivity].
    + split; [intros E'; discriminate E'|intros [_ E']; lia].
Qed.

(** a small system of its own, for [producer_bound]: a producer that sends [len] bytes only
    once [wait_for_credit] grants them, among the operations of other threads (which never
    record a send) *)
Inductive ev := Produce (len : N) | Env (o : op).

Definition env_ok (o : op) : bool := match o with Sent _ => false | _ => true end.

Definition run_ev (s : tc) (e : ev) : tc :=
  match e with
  | Produce len =>
      match snd (step s (TryCredit len)) with
      | OGranted => fst (step s (Sent (t_sent s + len)))
      | _ => s
      end
  | Env o => if env_ok o then fst (step s o) else s
  end.

Definition ev_len (e : ev) : N := match e with Produce l => l | _ => 0 end.

Lemma step_env_in_flight s o :
  env_ok o = true -> t_acked s <= t_sent s -> in_flight (next s o) <= in_flight s.
Proof.
  intros He H. pose proof (credit_step s o H) as C. unfold in_flight.
  destruct o; try discriminate He; cbv iota in C; try (destruct C as [-> ->]; apply N.le_refl).
  - (* Ack *) destruct C as [-> [C _]]. apply N.sub_le_mono_l, C.
  - (* Advance *) destruct C as [-> ->]. apply N.le_0_l.
  - (* Resume *) destruct C as [-> [C _]]. apply N.sub_le_mono_l, C.
Qed.

Definition credit_inv (w M : N) (s : tc) : Prop :=
  t_window s = w /\ t_acked s <= t_sent s /\ in_flight s <= N.max w M.

Lemma run_ev_inv w M s e : ev_len e <= M -> credit_inv w M s -> credit_inv w M (run_ev s e).
Proof.
  unfold credit_inv. intros Hl (Hw & Hi & Hf). destruct e as [len|o]; cbn [ev_len run_ev] in *.
  - rewrite !step_eq. cbn [fst snd reply]. destruct (t_cancelled s); [auto|].
    destruct (credit_ok s len) eqn:Ec; [|auto].
    unfold credit_ok in Ec. unfold in_flight in *. cbn [next t_window t_sent t_acked].
    destruct (t_sent s <? t_sent s + len) eqn:E; lia.
  - destruct (env_ok o) eqn:Ee; [|auto]. rewrite step_fst.
    pose proof (step_env_in_flight s o Ee Hi). pose proof (step_acked_le_sent s o Hi).
    split; [exact Hw|lia].
Qed.

Lemma producer_bound w c evs M :
  (forall e, In e evs -> ev_len e <= M) ->
  in_flight (fold_left run_ev evs (init w c)) <= N.max w M.
Proof.
  intros Hall. apply (fold_left_invariant run_ev (credit_inv w M)).
  - intros s e He. apply run_ev_inv, Hall, He.
  - unfold credit_inv, in_flight. cbn [init t_window t_acked t_sent]. lia.
Qed.

Lemma step_cancel_sticky s r o : t_cancelled s = Some r -> t_cancelled (next s o) = Some r.
Proof. intros H. destruct o; cbn [next t_cancelled]; rewrite H; reflexivity. Qed.

Lemma cancelled_reports s r :
  t_cancelled s = Some r ->
  (forall len, step s (TryCredit len) = (s, OCreditCancelled r)) /\
  step s TryReconnect = (s, OReconnCancelled r) /\
  (forall p f n, step s (Resume p f n) = (s, ORejCancelled)).
Proof. intros H. cbn [step]. rewrite H. repeat split. Qed.

Lemma first_reason_wins s r :
  t_cancelled s = None -> t_cancelled (fst (step s (Cancel r))) = Some r.
Proof. intros H. cbn [step]. rewrite H. reflexivity. Qed.

Lemma optN_eqb_refl a : optN_eqb a a = true.
Proof. destruct a; cbn [optN_eqb]; [apply N.eqb_refl|reflexivity]. Qed.

Definition track11_of (s : tc) : track11 := mkT11 (t_file s) (t_cancelled s) (snap_of s).

Lemma next11_track s o sn : next11 (track11_of s) o sn = mkT11 (t_file (next s o)) (t_cancelled (next s o)) sn.
Proof.
  unfold next11, track11_of. cbn [k_file k_cancel next t_file t_cancelled]. f_equal.
  destruct (t_cancelled s), o; reflexivity.
Qed.

Lemma step11 s o :
  t_acked s <= t_sent s -> t_window s < two64 ->
  step_ok11 (t_window s) (track11_of s) o (reply s o) (snap_of (next s o)) = true.
Proof.
  intros Hi Hlt.
  pose proof (credit_step s o Hi) as C. pose proof (step_acked_le_sent s o Hi) as Hi'.
  unfold step_ok11. cbn [track11_of k_file k_cancel k_prev snap_of n_sent n_acked n_cancel].
  apply andb_true_intro. split; [apply andb_true_intro; split|].
  - apply N.leb_le, Hi'.
  - (* the cancel field moves like the tracker's *)
    cbn [next t_cancelled]. destruct (t_cancelled s), o; apply optN_eqb_refl.
  - destruct o as [n|f n|f|p f n|r|off len lst body|p|len| |n]; cbv iota in C;
      try (destruct C as [-> ->]; now rewrite !N.eqb_refl).
    + destruct C as [-> C]. rewrite N.eqb_refl. apply N.leb_le, C.
    + (* Ack *)
      destruct C as [Cs [Ca _]]. rewrite Cs, N.eqb_refl, (proj2 (N.leb_le _ _) Ca), !andb_true_r.
      destruct (negb (f =? t_file s) || (n <=? t_acked s)) eqn:E; [|reflexivity].
      rewrite <- step_fst, stale_ack_no_credit by (assumption || lia). now rewrite N.eqb_refl.
    + (* Resume *)
      destruct C as [-> [C _]]. rewrite N.eqb_refl, (proj2 (N.leb_le _ _) C), !andb_true_r.
      cbn [reply]. unfold accepts. destruct (t_cancelled s); [reflexivity|].
      destruct (_ && _); [reflexivity|]. destruct (f =? t_file s); reflexivity.
    + (* TryCredit *)
      destruct C as [-> ->]. rewrite !N.eqb_refl, !andb_true_r.
      cbn [reply]. destruct (t_cancelled s); [apply N.eqb_refl|].
      rewrite (credit_ok_fits s len Hlt). unfold in_flight. destruct (_ || _); reflexivity.
    + (* TryReconnect *)
      cbn [reply]. destruct (t_cancelled s); [apply N.eqb_refl|]. destruct (t_pending s); reflexivity.
Qed.

Lemma check11_run ops : forall s,
  t_acked s <= t_sent s -> t_window s < two64 ->
  check11 (t_window s) (track11_of s) ops (map (fun '(r, s) => (r, snap_of s)) (run s ops)) = true.
Proof.
  induction ops as [|o ops IH]; intros s Hi Hlt; [reflexivity|].
  rewrite run_cons. cbn [map check11]. rewrite (step11 s o Hi Hlt), next11_track.
  exact (IH (next s o) (step_acked_le_sent s o Hi) Hlt).
Qed.

Lemma ok_model_C11 w c ops : hist_ok w c ops = true -> ok_C11 w ops (model_trace w c ops) = true.
Proof.
  intros H. apply (check11_run ops (init w c)); [cbn [init t_acked t_sent]; lia|].
  unfold hist_ok in H. cbn [init t_window]. lia.
Qed.

Notation dflt := (mkChunk 0 0 false []).

(** the chunks of the [Push] operations after the last [Advance], oldest first *)
Definition psa_step (acc : list chunk) (o : op) : list chunk :=
  match o with
  | Push off len lst body => acc ++ [mkChunk off len lst body]
  | Advance _ => []
  | _ => acc
  end.

Definition pushed_since_advance (ops : list op) : list chunk := fold_left psa_step ops [].

Fixpoint all_pushed (ops : list op) : list chunk :=
  match ops with
  | [] => []
  | Push off len lst body :: ops' => mkChunk off len lst body :: all_pushed ops'
  | _ :: ops' => all_pushed ops'
  end.

(** [bytes_held] is a saturating u64 in the code: the byte accounting is exact
    only while the total number of wire bytes pushed stays below 2^64 *)
Definition wire_small (ops : list op) : Prop := sum_wire (all_pushed ops) < two64.

Lemma sum_wire_cons a l : sum_wire (a :: l) = wire a + sum_wire l.
Proof. reflexivity. Qed.

Lemma sum_wire_app a b : sum_wire (a ++ b) = sum_wire a + sum_wire b.
Proof.
  induction a as [|x a IH]; [cbn [app]; unfold sum_wire at 2; cbn [fold_right]; lia|].
  cbn [app]. rewrite !sum_wire_cons, IH. lia.
Qed.

Lemma sum_wire_nil : sum_wire [] = 0.
Proof. reflexivity. Qed.

Lemma sum_wire_snoc l c : sum_wire (l ++ [c]) = sum_wire l + wire c.
Proof. rewrite sum_wire_app, sum_wire_cons, sum_wire_nil. lia. Qed.

Lemma evict_cons2 a b rest held cap :
  evict (a :: b :: rest) held cap =
  if cap <? held then evict (b :: rest) (held - wire a) cap else (a :: b :: rest, held).
Proof. reflexivity. Qed.

Definition fits (cap : N) (ring : list chunk) : Prop := (length ring <= 1)%nat \/ sum_wire ring <= cap.

Lemma evict_spec ring : forall held cap,
  ring <> [] ->
  exists pre, ring = pre ++ fst (evict ring held cap) /\ fst (evict ring held cap) <> [] /\
    (held = sum_wire ring ->
     snd (evict ring held cap) = sum_wire (fst (evict ring held cap)) /\ fits cap (fst (evict ring held cap))).
Proof.
  induction ring as [|a ring IH]; intros held cap Hne; [contradiction|].
  destruct ring as [|b rest].
  - exists []. split; [reflexivity|]. split; [discriminate|]. intros Hh. split; [exact Hh|left; reflexivity].
  - rewrite evict_cons2. destruct (cap <? held) eqn:E.
    + destruct (IH (held - wire a) cap) as (pre & Hp & Hn & Hs); [discriminate|].
      exists (a :: pre). split; [cbn [app]; now rewrite <- Hp|]. split; [exact Hn|].
      intros Hh. apply Hs. rewrite sum_wire_cons in Hh. lia.
    + cbn [fst snd]. exists []. split; [reflexivity|]. split; [discriminate|].
      intros Hh. split; [exact Hh|right; lia].
Qed.

Lemma contiguous_cons2 a b l : contiguous (a :: b :: l) = (ck_end a =? ck_off b) && contiguous (b :: l).
Proof. reflexivity. Qed.

Lemma contiguous_tail a l : contiguous (a :: l) = true -> contiguous l = true.
Proof.
  destruct l as [|b l]; [reflexivity|]. rewrite contiguous_cons2. intros H.
  apply andb_true_iff in H. exact (proj2 H).
Qed.

Lemma contiguous_inv a b l :
  contiguous (a :: b :: l) = true -> ck_end a = ck_off b /\ contiguous (b :: l) = true.
Proof. rewrite contiguous_cons2, andb_true_iff, N.eqb_eq. trivial. Qed.

Lemma contiguous_app_r pre l : contiguous (pre ++ l) = true -> contiguous l = true.
Proof.
  induction pre as [|a pre IH]; intros H; [exact H|].
  apply IH. cbn [app] in H. exact (contiguous_tail _ _ H).
Qed.

Lemma contiguous_snoc l c :
  contiguous l = true -> (l = [] \/ ck_end (last l dflt) = ck_off c) -> contiguous (l ++ [c]) = true.
Proof.
  intros Hc [->|He]; [reflexivity|]. revert Hc He.
  induction l as [|a [|b l] IH]; intros Hc He.
  - reflexivity.
  - cbn [last] in He. cbn [app contiguous]. now rewrite He, N.eqb_refl.
  - apply contiguous_inv in Hc. destruct Hc as [Hh Hc].
    cbn [app]. rewrite contiguous_cons2, Hh, N.eqb_refl. exact (IH Hc He).
Qed.

Lemma contiguous_off_le l : forall a d,
  contiguous (a :: l) = true ->
  (forall c, In c (a :: l) -> ck_off a <= ck_off c) /\ ck_off a <= ck_end (last (a :: l) d).
Proof.
  induction l as [|b l IH]; intros a d Hc.
  - split; [intros c [<-|[]]; lia|]. cbn [last]. unfold ck_end. lia.
  - apply contiguous_inv in Hc. destruct Hc as [Hh Hc]. destruct (IH b d Hc) as [Hm He].
    unfold ck_end in Hh. split; [|rewrite last_cons2; lia].
    intros c [<-|Hin]; [lia|]. specialize (Hm c Hin). lia.
Qed.

Lemma chunk_eqb_refl a : chunk_eqb a a = true.
Proof.
  unfold chunk_eqb. rewrite !N.eqb_refl, Bool.eqb_reflx. cbn [andb].
  induction (ck_body a) as [|p x IH]; [reflexivity|].
  rewrite N.eqb_refl. exact IH.
Qed.

Lemma chunks_eqb_refl l : chunks_eqb l l = true.
Proof. induction l as [|a l IH]; [reflexivity|]. cbn [chunks_eqb]. now rewrite chunk_eqb_refl, IH. Qed.

Lemma is_suffix_unfold a b :
  is_suffix a b = chunks_eqb a b || match b with [] => false | _ :: b' => is_suffix a b' end.
Proof. destruct b; reflexivity. Qed.

Lemma is_suffix_app pre cs : is_suffix cs (pre ++ cs) = true.
Proof.
  induction pre as [|a pre IH].
  - cbn [app]. rewrite is_suffix_unfold, chunks_eqb_refl. reflexivity.
  - cbn [app]. rewrite is_suffix_unfold, IH. apply orb_true_r.
Qed.

Lemma covers_spec ring n :
  covers ring n = true <->
  (ring = [] /\ n = 0) \/
  (ring <> [] /\ ((exists c, In c ring /\ ck_off c = n) \/ ck_end (last ring (mkChunk 0 0 false [])) = n)).
Proof.
  destruct ring as [|a l]; unfold covers.
  - rewrite N.eqb_eq. intuition congruence.
  - rewrite orb_true_iff, existsb_exists, N.eqb_eq. setoid_rewrite N.eqb_eq. intuition discriminate.
Qed.

Lemma replay_from_cons a l n :
  replay_from (a :: l) n = if n <=? ck_off a then a :: replay_from l n else replay_from l n.
Proof. reflexivity. Qed.

Lemma replay_from_all a l n :
  contiguous (a :: l) = true -> n <= ck_off a -> replay_from (a :: l) n = a :: l.
Proof.
  intros Hc Hn. unfold replay_from. apply filter_all. intros c Hin.
  pose proof (proj1 (contiguous_off_le l a a Hc) c Hin). lia.
Qed.

Lemma replay_split ring n :
  contiguous ring = true ->
  exists pre, ring = pre ++ replay_from ring n /\ (forall c, In c pre -> ck_off c < n).
Proof.
  induction ring as [|a l IH]; intros Hc.
  - exists []. split; [reflexivity|intros c []].
  - destruct (n <=? ck_off a) eqn:E.
    + exists []. split; [|intros c []]. rewrite replay_from_all; [reflexivity|exact Hc|lia].
    + destruct (IH (contiguous_tail _ _ Hc)) as (pre & Hp & Hlt).
      exists (a :: pre). rewrite replay_from_cons, E. split.
      * cbn [app]. now rewrite <- Hp.
      * intros c [<-|Hin]; [lia|now apply Hlt].
Qed.

Lemma replay_gapless ring n :
  contiguous ring = true -> covers ring n = true ->
  let cs := replay_from ring n in
  is_suffix cs ring = true /\ contiguous cs = true /\
  match cs with
  | [] => ring = [] /\ n = 0 \/ ring <> [] /\ ck_end (last ring (mkChunk 0 0 false [])) = n
  | c0 :: _ => ck_off c0 = n
  end.
Proof.
  intros Hc Hv. cbn zeta.
  destruct (replay_split ring n Hc) as (pre & Hp & Hlt).
  assert (forall c, In c (replay_from ring n) -> n <= ck_off c) as Hge.
  { intros c Hin. unfold replay_from in Hin. apply filter_In in Hin. destruct Hin as [_ Hin]. lia. }
  remember (replay_from ring n) as cs eqn:Ecs. clear Ecs.
  assert (contiguous cs = true) as Hc' by (rewrite Hp in Hc; exact (contiguous_app_r _ _ Hc)).
  split; [rewrite Hp; apply is_suffix_app|]. split; [exact Hc'|].
  apply covers_spec in Hv.
  destruct cs as [|c0 cs'].
  - rewrite app_nil_r in Hp. subst pre.
    destruct Hv as [Hv|[Hne [(c & Hin & Hoff)|He]]].
    + left. exact Hv.
    + specialize (Hlt c Hin). lia.
    + right. split; assumption.
  - pose proof (Hge c0 (or_introl eq_refl)) as Hlo.
    destruct Hv as [[Hv _]|[Hne [(c & Hin & Hoff)|He]]].
    + rewrite Hv in Hp. destruct pre; discriminate Hp.
    + rewrite Hp in Hin. apply in_app_or in Hin. destruct Hin as [Hin|Hin].
      * specialize (Hlt c Hin). lia.
      * pose proof (proj1 (contiguous_off_le cs' c0 c0 Hc') c Hin). lia.
    + rewrite Hp in He. rewrite last_app_ne in He by discriminate.
      pose proof (proj2 (contiguous_off_le cs' c0 (mkChunk 0 0 false []) Hc')). lia.
Qed.

Lemma pushed_spec s c :
  exists pre, t_ring s ++ [c] = pre ++ fst (pushed s c) /\ fst (pushed s c) <> [] /\
    (t_held s = sum_wire (t_ring s) -> sum_wire (t_ring s) + wire c < two64 ->
     snd (pushed s c) = sum_wire (fst (pushed s c)) /\ fits (t_cap s) (fst (pushed s c))).
Proof.
  destruct (evict_spec _ (sat_add64 (t_held s) (wire c)) (t_cap s) (snoc_nonempty (t_ring s) c))
    as (pre & Hp & Hn & Hs).
  exists pre. split; [exact Hp|]. split; [exact Hn|]. intros Hh Hw. apply Hs.
  unfold sat_add64. rewrite sum_wire_snoc, Hh. lia.
Qed.

Lemma most_recent_retained s c :
  t_ring (ring_push s c) <> [] /\ last (t_ring (ring_push s c)) c = c.
Proof.
  rewrite ring_push_eq. proj. destruct (pushed_spec s c) as (pre & Hp & Hn & _).
  split; [exact Hn|]. now rewrite <- (last_app_ne pre _ c Hn), <- Hp, last_last.
Qed.

Lemma accepts_iff s f n :
  accepts s f n = true <-> t_cancelled s = None /\ f = t_file s /\ covers (t_ring s) n = true.
Proof.
  unfold accepts. destruct (t_cancelled s).
  - split; [discriminate|intros [E _]; discriminate E].
  - rewrite andb_true_iff, N.eqb_eq. tauto.
Qed.

Lemma resume_accept_iff s p f n :
  (exists s', step s (Resume p f n) = (s', OResumeOk n)) <->
  t_cancelled s = None /\ f = t_file s /\ covers (t_ring s) n = true.
Proof.
  rewrite <- accepts_iff, step_eq. cbn [reply]. destruct (accepts s f n).
  - split; [reflexivity|]. intros _. eexists. reflexivity.
  - split; [|discriminate]. intros [s' E].
    destruct (t_cancelled s); [|destruct (f =? t_file s)]; discriminate E.
Qed.

Lemma advance_empties s f :
  t_ring (fst (step s (Advance f))) = [] /\ t_pending (fst (step s (Advance f))) = None /\
  t_held (fst (step s (Advance f))) = 0.
Proof. cbn [step]. proj. repeat split. Qed.

(** where [pushes_ok] expects the next push: at the end of the last one since the last advance *)
Definition endo_of (acc : list chunk) : option N :=
  match acc with [] => None | _ => Some (ck_end (last acc dflt)) end.

Definition abut (acc : list chunk) (rest : list op) : Prop :=
  contiguous acc = true /\ pushes_ok (endo_of acc) rest = true.

Lemma abut_step acc o rest : abut acc (o :: rest) -> abut (psa_step acc o) rest.
Proof.
  intros [Hc Hp]. destruct o as [n|f n|f|p f n|r|off len lst body|p|len| |n]; try exact (conj Hc Hp).
  - (* Advance *) exact (conj eq_refl Hp).
  - (* Push *)
    cbn [pushes_ok] in Hp. apply andb_true_iff in Hp. destruct Hp as [Hp Hr]. cbn [psa_step]. split.
    + apply contiguous_snoc; [exact Hc|]. destruct acc as [|a l]; [now left|right].
      cbn [endo_of ck_off] in *. lia.
    + unfold endo_of. destruct (acc ++ _) eqn:E; [now apply snoc_nonempty in E|].
      rewrite <- E, last_last. exact Hr.
Qed.

(** An invariant may speak of the state, of [acc], the chunks pushed since the
    last advance, and of [rest], the operations still to come. *)
Lemma hist_invariant (P : list chunk -> list op -> tc -> Prop) :
  (forall acc o rest s, P acc (o :: rest) s -> P (psa_step acc o) rest (next s o)) ->
  forall ops acc s, P acc ops s -> P (fold_left psa_step ops acc) [] (exec s ops).
Proof.
  intros Hstep. induction ops as [|o ops IH]; intros acc s H; [exact H|].
  rewrite exec_cons. apply IH, Hstep, H.
Qed.

(** the ring is the tail of [acc] that eviction left, and eviction never takes all *)
Definition minvA (acc : list chunk) (rest : list op) (s : tc) : Prop :=
  abut acc rest /\ (exists pre, acc = pre ++ t_ring s) /\ (t_ring s = [] -> acc = []).

(** [bytes_held] is exact, and stays so while the bytes held and those still
    to be pushed fit 64 bits *)
Definition minvB (rest : list op) (s : tc) : Prop :=
  t_held s = sum_wire (t_ring s) /\ fits (t_cap s) (t_ring s) /\
  sum_wire (t_ring s) + sum_wire (all_pushed rest) < two64.

Lemma stepA acc o rest s : minvA acc (o :: rest) s -> minvA (psa_step acc o) rest (next s o).
Proof.
  intros (Hab & [pre Hp] & Hn). split; [exact (abut_step acc o rest Hab)|].
  destruct o as [n|f n|f|p f n|r|off len lst body|p|len| |n]; try exact (conj (ex_intro _ pre Hp) Hn).
  - (* Advance *) split; [now exists []|reflexivity].
  - (* Push *)
    cbn [psa_step next t_ring]. destruct (pushed_spec s (mkChunk off len lst body)) as (pre2 & Hp2 & Hne & _).
    split; [|intros E; contradiction].
    exists (pre ++ pre2). rewrite Hp, <- !app_assoc. f_equal. exact Hp2.
Qed.

Lemma stepB o rest s : minvB (o :: rest) s -> minvB rest (next s o).
Proof.
  intros (Hh & Hb & Hw).
  destruct o as [n|f n|f|p f n|r|off len lst body|p|len| |n]; try exact (conj Hh (conj Hb Hw)).
  - (* Advance *)
    split; [reflexivity|]. split; [left; apply Nat.le_0_l|]. cbn [all_pushed] in Hw. cbn [next t_ring]. rewrite sum_wire_nil. lia.
  - (* Push *)
    cbn [all_pushed] in Hw. rewrite sum_wire_cons in Hw. unfold minvB. cbn [next t_ring t_held t_cap].
    set (c := mkChunk off len lst body) in *.
    destruct (pushed_spec s c) as (pre & Hp & _ & Hs). destruct (Hs Hh) as [Hh' Hb']; [lia|].
    split; [exact Hh'|]. split; [exact Hb'|].
    pose proof (sum_wire_snoc (t_ring s) c) as E. rewrite Hp, sum_wire_app in E. lia.
Qed.

Lemma minvA_init w c ops : hist_ok w c ops = true -> minvA [] ops (init w c).
Proof.
  intros H. unfold hist_ok in H. apply andb_true_iff in H.
  split; [exact (conj eq_refl (proj2 H))|]. split; [now exists []|reflexivity].
Qed.

Lemma minvB_init w c ops : wire_small ops -> minvB ops (init w c).
Proof. intros Hw. split; [reflexivity|]. split; [left; apply Nat.le_0_l|exact Hw]. Qed.

Lemma minvA_hist w c ops :
  hist_ok w c ops = true -> minvA (pushed_since_advance ops) [] (exec (init w c) ops).
Proof. intros H. exact (hist_invariant minvA stepA ops [] _ (minvA_init w c ops H)). Qed.

Lemma minvA_contiguous acc rest s : minvA acc rest s -> contiguous (t_ring s) = true.
Proof. intros ([Hc _] & [pre Hp] & _). rewrite Hp in Hc. exact (contiguous_app_r _ _ Hc). Qed.

Definition cancelled_b (s : tc) : bool := match t_cancelled s with Some _ => true | None => false end.

Definition track13_of (s : tc) (acc : list chunk) (ja : option N) : track13 :=
  mkT13 (t_file s) (cancelled_b s) acc (t_pending s) (snap_of s) ja.

Definition accepted (s : tc) (o : op) : option N :=
  match o with Resume _ f n => if accepts s f n then Some n else None | _ => None end.

Lemma next13_track s acc ja o sn :
  next13 (track13_of s acc ja) o (reply s o) sn =
  mkT13 (t_file (next s o)) (cancelled_b (next s o)) (psa_step acc o) (t_pending (next s o)) sn
        (accepted s o).
Proof.
  unfold next13, track13_of, accepted, cancelled_b. cbn [j_file j_cancel j_pushed j_pending].
  destruct o as [n|f n|f|p f n|r|off len lst body|p|len| |n];
    cbn [reply next t_file t_cancelled t_pending psa_step]; try reflexivity.
  - (* Resume *)
    destruct (accepts s f n); [reflexivity|].
    destruct (t_cancelled s); [reflexivity|]. destruct (f =? t_file s); reflexivity.
  - (* Cancel *) destruct (t_cancelled s); reflexivity.
  - (* TryReconnect *) destruct (t_cancelled s); [reflexivity|]. destruct (t_pending s); reflexivity.
Qed.

Lemma accepted_covers s o a : accepted s o = Some a -> covers (t_ring (next s o)) a = true.
Proof.
  destruct o as [| | |p f n| | | | | |]; try discriminate. cbn [accepted next t_ring].
  destruct (accepts s f n) eqn:E; [|discriminate]. intros [= <-]. apply accepts_iff in E. apply E.
Qed.

(** the oracle spells [covers] out over the previous snapshot's ring *)
Lemma acceptable_accepts s f n :
  negb (cancelled_b s) && (f =? t_file s) &&
  match t_ring s with
  | [] => n =? 0
  | c :: l => existsb (fun c0 : chunk => ck_off c0 =? n) (c :: l) || (last_end (c :: l) =? n)
  end = accepts s f n.
Proof. unfold cancelled_b, accepts. destruct (t_cancelled s); [|destruct (t_ring s)]; reflexivity. Qed.

(** after an accepted resume the oracle wants the replay to be the gapless tail,
    from the accepted offset, of what was pushed: [replay_gapless] says so of
    the ring, and the ring ends where the pushes end *)
Lemma replay_tail acc rest s n :
  minvA acc rest s -> covers (t_ring s) n = true ->
  is_suffix (replay_from (t_ring s) n) acc &&
  match replay_from (t_ring s) n with
  | [] => last_end acc =? n
  | c :: _ => ck_off c =? n
  end = true.
Proof.
  intros I Hv. pose proof (minvA_contiguous _ _ _ I) as Hcr. destruct I as (_ & [pre Hp] & Hn).
  destruct (replay_gapless (t_ring s) n Hcr Hv) as (_ & _ & G).
  destruct (replay_split (t_ring s) n Hcr) as (pre2 & Hp2 & _).
  remember (replay_from (t_ring s) n) as cs eqn:Ecs. clear Ecs.
  apply andb_true_iff. split; [rewrite Hp, Hp2, app_assoc; apply is_suffix_app|].
  destruct cs as [|c0 cs']; [|lia].
  destruct G as [[G1 G2]|[G1 G2]].
  - rewrite (Hn G1). cbn [last_end]. lia.
  - rewrite Hp, <- G2. unfold last_end.
    destruct (pre ++ t_ring s) eqn:E; [now apply app_eq_nil in E|].
    rewrite <- E, last_app_ne by exact G1. apply N.eqb_refl.
Qed.

Lemma step13 s acc rest ja o :
  minvA acc (o :: rest) s -> (forall a, ja = Some a -> covers (t_ring s) a = true) ->
  minvA (psa_step acc o) rest (next s o) -> fits (t_cap s) (t_ring (next s o)) ->
  step_ok13 (t_cap s) (track13_of s acc ja) o (reply s o) (snap_of (next s o)) = true.
Proof.
  intros I Hac (_ & [pre' Hp'] & Hn') Hb.
  unfold step_ok13. cbn [track13_of j_file j_cancel j_pushed j_pending j_prev j_accepted snap_of n_ring n_peer].
  cbn zeta. fold (psa_step acc o).
  apply andb_true_intro. split; [apply andb_true_intro; split; [apply andb_true_intro; split|]|].
  - rewrite Hp'. apply is_suffix_app.
  - unfold fits in Hb. lia.
  - destruct (psa_step acc o); [reflexivity|].
    destruct (t_ring (next s o)); [discriminate (Hn' eq_refl)|reflexivity].
  - destruct o as [n|f n|f|p f n|r|off len lst body|p|len| |n]; try reflexivity.
    + (* Resume *)
      rewrite acceptable_accepts. cbn [reply next t_peer].
      destruct (accepts s f n).
      * cbn [andb optN_eqb]. now rewrite !N.eqb_refl.
      * destruct (t_cancelled s); [|destruct (f =? t_file s)]; apply optN_eqb_refl.
    + (* TryReconnect *)
      cbn [reply]. unfold cancelled_b. destruct (t_cancelled s); [reflexivity|].
      destruct (t_pending s); [apply N.eqb_refl|reflexivity].
    + (* Replay *)
      cbn [reply]. destruct ja as [a|]; [|reflexivity]. destruct (a =? n) eqn:Ea; [|reflexivity].
      apply N.eqb_eq in Ea. exact (replay_tail acc _ s n I (Hac n (f_equal Some Ea))).
Qed.

Lemma check13_run ops : forall s acc ja,
  (forall a, ja = Some a -> covers (t_ring s) a = true) -> minvA acc ops s -> minvB ops s ->
  check13 (t_cap s) (track13_of s acc ja) ops (map (fun '(r, s) => (r, snap_of s)) (run s ops)) = true.
Proof.
  induction ops as [|o ops IH]; intros s acc ja Hac HA HB; [reflexivity|].
  pose proof (stepA acc o ops s HA) as HA'. pose proof (stepB o ops s HB) as HB'.
  rewrite run_cons. cbn [map check13].
  rewrite (step13 s acc ops ja o HA Hac HA' (proj1 (proj2 HB'))), next13_track.
  exact (IH (next s o) _ _ (accepted_covers s o) HA' HB').
Qed.

Lemma ok_model_C13 w c ops :
  hist_ok w c ops = true -> wire_small ops -> ok_C13 c ops (model_trace w c ops) = true.
Proof.
  intros H Hw. apply (check13_run ops (init w c) [] None); [discriminate| |exact (minvB_init w c ops Hw)].
  exact (minvA_init w c ops H).
Qed.

(** [wire_small] cannot be dropped: with two bodies of 2^63 bytes the
    saturating [bytes_held] under-counts, nothing is evicted, and the ring
    holds two chunks whose wire size exceeds the capacity.  (Such bodies
    cannot be materialised, so this is stated for an abstract body.) *)
Lemma big_body_exists (n : N) : exists b, bytes_ok b = true /\ N.of_nat (length b) = n.
Proof.
  exists (repeat 0 (N.to_nat n)). split.
  - induction (N.to_nat n) as [|m IH]; [reflexivity|].
    change (repeat 0 (S m)) with (0 :: repeat 0 m). rewrite bytes_ok_cons, IH. reflexivity.
  - rewrite repeat_length. apply N2Nat.id.
Qed.

Lemma step_ok13_unbounded cap k o r sn :
  (N.of_nat (length (n_ring sn)) <=? 1) || (sum_wire (n_ring sn) <=? cap) = false ->
  step_ok13 cap k o r sn = false.
Proof. intros H. unfold step_ok13. cbn zeta. rewrite H, andb_false_r. reflexivity. Qed.

Lemma saturation_breaks_bound_body b h :
  bytes_ok b = true -> N.of_nat (length b) = h -> h < two64 -> two64 <= h + h ->
  let ops := [Push 0 0 false b; Push 0 0 false b] in
  hist_ok 0 (two64 - 1) ops = true /\ ok_C13 (two64 - 1) ops (model_trace 0 (two64 - 1) ops) = false.
Proof.
  intros Hb Hl H1 H2. cbn zeta. split.
  - unfold hist_ok. cbn [forallb op_ok pushes_ok]. rewrite Hb. reflexivity.
  - unfold ok_C13, model_trace. rewrite !run_cons. cbn [map check13].
    rewrite andb_true_r. apply andb_false_intro2, step_ok13_unbounded.
    set (c := mkChunk 0 0 false b). change (wire c = h) in Hl.
    cbn [snap_of n_ring next pushed init t_ring t_held t_cap app evict fst snd]. fold c. rewrite Hl.
    replace (two64 - 1 <? sat_add64 (sat_add64 0 h) h) with false by (unfold sat_add64; lia).
    cbn [fst length]. rewrite !sum_wire_cons, sum_wire_nil, Hl. lia.
Qed.

Lemma saturation_breaks_bound :
  exists w c ops, hist_ok w c ops = true /\ ok_C13 c ops (model_trace w c ops) = false.
Proof.
  destruct (big_body_exists 9223372036854775808) as (b & Hb & Hl).
  exists 0, (two64 - 1), [Push 0 0 false b; Push 0 0 false b].
  apply (saturation_breaks_bound_body b _ Hb Hl); [reflexivity|discriminate].
Qed.
