(** The C01 oracle accepts the model's observation for every well-formed case. *)
From RepeV Require Import Model.C01 Proofs.HeaderProofs Proofs.MessageProofs.
From Coq Require Import ZifyBool ZifyN ZifyNat.

Lemma split_chunks_concat sizes b : concat (split_chunks sizes b) = b.
Proof.
  revert b; induction sizes as [|s sizes IH]; intros b; cbn [split_chunks].
  - destruct b; [reflexivity|]. cbn [concat]. apply app_nil_r.
  - destruct b as [|x b]; [reflexivity|].
    destruct (s =? 0); [cbn [concat]; apply app_nil_r|].
    cbn [concat]. rewrite IH. apply firstn_skipn.
Qed.

Lemma skipn_48_app h rest : skipn 48 (encode h ++ rest) = rest.
Proof. rewrite <- (encode_length h). apply skipn_app_exact. Qed.

Lemma decode_bad_spec bs h :
  hdr_ok h = true -> h_spec h <> REPE_SPEC -> decode (encode h ++ bs) = Err ESpec.
Proof.
  intros Hok Hs. unfold decode.
  rewrite app_length, encode_length, (f_spec h Hok bs), (proj2 (N.eqb_neq _ _) Hs).
  replace (N.of_nat (48 + length bs) <? HEADER_SIZE) with false by (unfold HEADER_SIZE; lia).
  reflexivity.
Qed.

Lemma from_slice_bad_spec m rest :
  hdr_ok (m_hdr m) = true -> h_spec (m_hdr m) <> REPE_SPEC ->
  from_slice (to_vec m ++ rest) = Err ESpec.
Proof.
  intros Hok Hs. rewrite from_slice_closed. unfold parse_spec.
  rewrite lenN_app, lenN_to_vec_parts. replace (_ <? HEADER_SIZE) with false by (clear; lia).
  unfold to_vec. rewrite <- app_assoc, firstn_48_encode_app, <- (app_nil_r (encode _)).
  rewrite decode_bad_spec by assumption. reflexivity.
Qed.

(** the pieces of the oracle, for an arbitrary message; each under the part of
    consistency it needs *)
Lemma piece_tv m :
  hdr_ok (m_hdr m) = true -> lens_ok m ->
  layout_ok (m_hdr m) (to_vec m) = true /\
  bytes_eqb (skipn 48 (to_vec m)) (m_query m ++ m_body m) = true /\
  (lenN (to_vec m) =? h_length (m_hdr m)) = true.
Proof.
  intros Hh Hlens. rewrite (lenN_to_vec m Hlens), N.eqb_refl. unfold to_vec.
  now rewrite skipn_48_app, bytes_eqb_refl, encode_layout.
Qed.

Lemma piece_routes m cap chunks :
  lens_ok m ->
  forallb (bytes_eqb (to_vec m))
    [concat (write_chunks m); into_wire_bytes cap m; concat (write_chunks m);
     concat (write_chunks m);
     concat (write_streaming_chunks (m_hdr m) (m_query m) (lenN (m_body m))
               (split_chunks chunks (m_body m)))] = true.
Proof.
  intros Hlens. cbn [forallb]. rewrite write_chunks_concat, into_wire_bytes_eq.
  rewrite streaming_concat by apply split_chunks_concat.
  rewrite (patch_lengths_self m Hlens).
  replace (mkMessage (m_hdr m) (m_query m) (m_body m)) with m by now destruct m.
  now rewrite !bytes_eqb_refl.
Qed.

(** the echo case of [srv_resp] *)
Lemma framed_echo m :
  lens_ok m ->
  framed (mkMessage (patch_lengths (m_hdr m) 0 (lenN (m_body m))) [] (m_body m)) (m_query m) = m.
Proof.
  intros Hlens. unfold framed, echo_query. cbn [m_query m_body m_hdr].
  rewrite patch_lengths_twice, (patch_lengths_self m Hlens). now destruct m.
Qed.

Lemma framed_own m x qq : lens_ok m -> m_query m = x :: qq -> framed m mirror_path = m.
Proof.
  intros Hlens Eq. unfold framed, echo_query. rewrite Eq.
  rewrite <- Eq, (patch_lengths_self m Hlens). now destruct m.
Qed.

Lemma piece_mirror m :
  hdr_ok (m_hdr m) = true -> m_query m = [] -> lenN (m_body m) + 1024 < two64 ->
  layout_ok (patch_lengths (m_hdr m) 7 (lenN (m_body m))) (to_vec (framed m mirror_path)) = true /\
  bytes_eqb (skipn 48 (to_vec (framed m mirror_path))) (mirror_path ++ m_body m) = true.
Proof.
  intros Hh Eq Hsz. unfold framed, echo_query, to_vec. rewrite Eq. cbn [m_hdr m_query m_body].
  change (lenN mirror_path) with 7. rewrite skipn_48_app, bytes_eqb_refl, encode_layout; [easy|].
  apply hdr_ok_patch; [exact Hh|]. clear - Hsz. unfold HEADER_SIZE. lia.
Qed.

Lemma piece_read m rest :
  msg_ok m = true -> can_alloc_R4 (h_length (m_hdr m)) = true ->
  read_message can_alloc_R4 (to_vec m ++ rest) = Ok (m, rest) /\
  read_message_into can_alloc_R4 (to_vec m ++ rest) = Ok (to_vec m, rest).
Proof.
  intros Hok Ea.
  assert (can_alloc_R4 (lenN (m_query m)) = true /\ can_alloc_R4 (lenN (m_body m)) = true) as [A1 A2].
  { unfold can_alloc_R4 in *. destruct (msg_ok_lens m Hok) as (_ & _ & L3). rewrite L3 in Ea.
    clear - Ea. unfold HEADER_SIZE in *. lia. }
  split; [now apply read_message_round_trip|now apply read_message_into_round_trip].
Qed.

Lemma piece_trail m rest :
  msg_ok m = true ->
  match rest with
  | [] => is_ok_msg m (from_slice_exact (to_vec m ++ rest))
  | _ => is_err (from_slice_exact (to_vec m ++ rest))
  end = true.
Proof.
  intros Hok. rewrite (from_slice_exact_app m rest Hok).
  destruct rest; [apply message_eqb_refl|reflexivity].
Qed.

Lemma piece_bad_spec m rest :
  hdr_ok (m_hdr m) = true -> h_spec (m_hdr m) <> REPE_SPEC ->
  decode (to_vec m) = Err ESpec /\ from_slice (to_vec m ++ rest) = Err ESpec /\
  from_slice_exact (to_vec m) = Err ESpec.
Proof.
  intros Hh Hs. split; [|split].
  - unfold to_vec. now apply decode_bad_spec.
  - now apply from_slice_bad_spec.
  - unfold from_slice_exact. rewrite <- (app_nil_r (to_vec m)) at 1.
    now rewrite from_slice_bad_spec.
Qed.

Lemma piece_srv resp req_q :
  lens_ok resp ->
  forallb (bytes_eqb (concat (server_frame resp req_q)))
    [concat (server_frame resp req_q); into_wire_bytes (lenN (m_body resp)) (stamp resp req_q)]
  = true.
Proof.
  intros Lr. cbn [forallb].
  now rewrite into_wire_bytes_eq, (stamp_eq_framed _ _ Lr), server_frame_concat, bytes_eqb_refl.
Qed.

Section Holds.
  Variable c : c01_case.
  Hypothesis Hwf : c01_wf c = true.

  Lemma wf_parts : hdr_ok (c_hdr c) = true /\ bytes_ok (c_query c) = true /\
                   bytes_ok (c_body c) = true /\ bytes_ok (c_rest c) = true /\
                   lenN (c_query c) + lenN (c_body c) + 1024 < two64.
  Proof.
    unfold c01_wf in Hwf. do 4 (apply andb_true_iff in Hwf as [Hwf ?E]).
    apply N.ltb_lt in E. auto.
  Qed.

  Lemma ok_model_C01_ok m :
    msg_new (c_hdr c) (c_query c) (c_body c) = Ok m -> ok_C01 c (model_C01 c) = true.
  Proof.
    intros Hm. unfold model_C01. rewrite Hm. cbv zeta.
    apply msg_new_ok in Hm as (Em & L). assert (lens_ok m) as Hlens by (rewrite Em; exact L).
    destruct wf_parts as (Hh & Hq & Hb & Hr & Hsz).
    replace (c_hdr c) with (m_hdr m) in Hh by now rewrite Em.
    replace (c_query c) with (m_query m) in Hq, Hsz by now rewrite Em.
    replace (c_body c) with (m_body m) in Hb, Hsz by now rewrite Em.
    unfold ok_C01.
    cbn [o_new o_routes o_srv o_decode o_parse_more o_parse_exact o_parse_trail o_read o_read_into].
    rewrite <- Em, message_eqb_refl. cbn [andb].
    unfold model_routes.
    destruct (piece_tv m Hh Hlens) as (T1 & T2 & T3).
    rewrite T1, T2, T3, (piece_routes m _ _ Hlens). cbn [andb]. rewrite andb_true_r.
    apply andb_true_intro. split.
    - unfold model_srv, srv_resp.
      destruct (c_echo c).
      + rewrite piece_srv by (repeat split; reflexivity).
        now rewrite server_frame_concat, (framed_echo m Hlens), bytes_eqb_refl.
      + rewrite (piece_srv m mirror_path Hlens), server_frame_concat.
        destruct (m_query m) as [|x qq] eqn:Eq.
        * change (lenN mirror_path) with 7. now destruct (piece_mirror m Hh Eq Hsz) as [-> ->].
        * now rewrite (framed_own m x qq Hlens Eq), bytes_eqb_refl.
    - rewrite view_eq_owned, !view_exact_eq.
      destruct (N.eqb_spec (h_spec (m_hdr m)) REPE_SPEC) as [Es|Hs].
      + pose proof (msg_ok_intro m Hh Hq Hb Es Hlens) as Hok.
        rewrite (decode_app_ok _ _ _ (decode_msg_hdr m Hok) : decode (to_vec m) = _).
        rewrite (from_slice_round_trip m _ Hok), (from_slice_exact_round_trip m Hok).
        rewrite (proj2 (header_eqb_eq _ _) eq_refl).
        cbn [forallb is_ok_msg andb lenN length]. rewrite message_eqb_refl. cbn [andb].
        apply andb_true_intro. split.
        * now rewrite (piece_trail m (c_rest c) Hok).
        * destruct (can_alloc_R4 (h_length (m_hdr m))) eqn:Ea; [|reflexivity].
          destruct (piece_read m (c_rest c) Hok Ea) as [-> ->].
          now rewrite message_eqb_refl, !bytes_eqb_refl.
      + now destruct (piece_bad_spec m (c_rest c) Hh Hs) as (-> & -> & ->).
  Qed.

  Theorem ok_model_C01 : ok_C01 c (model_C01 c) = true.
  Proof.
    pose proof (msg_new_eq (c_hdr c) (c_query c) (c_body c)) as E. revert E.
    destruct (_ && _) eqn:L; intros E.
    - exact (ok_model_C01_ok _ E).
    - (* the oracle lets [Message::new] refuse on the very test that made it refuse *)
      unfold model_C01. rewrite E. unfold ok_C01, empty_obs. cbn [o_new]. now rewrite L.
  Qed.
End Holds.
