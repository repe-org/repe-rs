(** The registry model refines the specification "a plain JSON document and a
    set of callables" ([model_refines_spec]): the tree walks of the code are the
    specification's get and put, which obey read-your-write and frame; a
    request through the mount is the request for what follows the prefix; the
    oracle accepts the specification's trace and no other. *)
From RepeV Require Import Model.Json Model.Registry Proofs.JsonProofs Proofs.PointerProofs.

(** where the specification's get / put has nothing, the tree walks of the code
    fail with an error of this class *)
Definition nf_class (e : rerr) : Prop := err_code e = METHOD_NOT_FOUND.

Definition to_opt {A} (r : res A) : option A := match r with Ok a => Some a | Err _ => None end.

Lemma child_nf d s e : child d s = Err e -> nf_class e.
Proof.
  unfold child. destruct d as [| | | |a|m]; try (intros [= <-]; reflexivity).
  - destruct (parse_usize s) as [i|]; [destruct (nthN a i)|]; intros [= <-]; reflexivity.
  - destruct (oget m s); intros [= <-]; reflexivity.
Qed.

Lemma set_last_nf d s v e : set_last d s v = Err e -> nf_class e.
Proof.
  unfold set_last. destruct d as [| | | |a|m]; try (intros [= <-]; reflexivity).
  destruct (parse_usize s) as [i|]; [destruct (nthN a i)|]; intros [= <-]; reflexivity.
Qed.

Lemma set_last_child d s c v : child d s = Ok c -> set_last d s v = Ok (put_child d s v).
Proof.
  unfold child, set_last, put_child. destruct d as [| | | |a|m]; try discriminate; [|reflexivity].
  destruct (parse_usize s) as [i|]; [|discriminate]. destruct (nthN a i); [reflexivity|discriminate].
Qed.

Lemma sp_get_resolve segs : forall d, sp_get d segs = to_opt (resolve d segs).
Proof.
  induction segs as [|s rest IH]; intros d; [reflexivity|]. cbn [sp_get resolve]. unfold child.
  destruct d as [| | | |a|m]; try reflexivity.
  - destruct (parse_usize s) as [i|]; [|reflexivity]. destruct (nthN a i); [apply IH|reflexivity].
  - destruct (oget m s); [apply IH|reflexivity].
Qed.

Lemma resolve_nf segs : forall d e, resolve d segs = Err e -> nf_class e.
Proof.
  induction segs as [|s rest IH]; intros d e; cbn [resolve]; [discriminate|].
  destruct (child d s) as [c|e'] eqn:C; [apply IH|]. intros [= <-]. exact (child_nf d s e' C).
Qed.

Lemma obs_resolve d segs :
  obs_out (of_res (resolve d segs)) = match sp_get d segs with Some v => OOk v | None => OErr METHOD_NOT_FOUND end.
Proof.
  rewrite sp_get_resolve. destruct (resolve d segs) as [v|e] eqn:R; [reflexivity|].
  cbn [of_res obs_out to_opt]. now rewrite (resolve_nf segs d e R).
Qed.

Lemma sp_put_set_ptr segs : forall d v, sp_put d segs v = to_opt (set_ptr d segs v).
Proof.
  induction segs as [|s rest IH]; intros d v; [reflexivity|]. cbn [sp_put set_ptr]. unfold child, set_last, put_child.
  destruct d as [| | | |a|m]; try (destruct rest; reflexivity).
  - destruct (parse_usize s) as [i|]; [|destruct rest; reflexivity].
    destruct (nthN a i) as [c|]; [|destruct rest; reflexivity].
    rewrite IH. destruct rest; [reflexivity|]. destruct (set_ptr c _ v); reflexivity.
  - destruct rest as [|r rest]; [reflexivity|]. destruct (oget m s) as [c|]; [|reflexivity].
    rewrite IH. destruct (set_ptr c _ v); reflexivity.
Qed.

Lemma set_ptr_nf segs : forall d v e, set_ptr d segs v = Err e -> nf_class e.
Proof.
  induction segs as [|s rest IH]; intros d v e; cbn [set_ptr]; [discriminate|].
  destruct rest as [|r rest]; [apply set_last_nf|].
  destruct (child d s) as [c|e'] eqn:C; [|intros [= <-]; exact (child_nf d s e' C)].
  destruct (set_ptr c (r :: rest) v) as [c'|e'] eqn:S; [discriminate|]. intros [= <-]. exact (IH c v e' S).
Qed.

Lemma merge_ptr_resolve segs : forall d o,
  merge_ptr d segs o =
  match resolve d segs with
  | Ok (JObj m) => set_ptr d segs (JObj (omerge m o))
  | Ok _ => Err EPathNotFound
  | Err e => Err e
  end.
Proof.
  induction segs as [|s rest IH]; intros d o; cbn [merge_ptr resolve set_ptr]; [destruct d; reflexivity|].
  destruct (child d s) as [c|e] eqn:C; [|reflexivity]. rewrite IH.
  destruct (resolve c rest) as [[| | | | |m]|e]; try reflexivity.
  destruct rest as [|r rest]; [|reflexivity]. symmetry. exact (set_last_child d s c _ C).
Qed.

Lemma reg_at_spec segs : forall d ins,
  segs <> [] -> JObj (reg_at (obj_of d) segs ins) = sp_force d segs ins.
Proof.
  induction segs as [|s rest IH]; intros d ins Hne; [contradiction|].
  cbn [reg_at sp_force]. destruct rest as [|r rest']; [destruct ins; reflexivity|].
  rewrite <- IH by discriminate. destruct (oget (obj_of d) s) as [[| | | | |cm]|]; reflexivity.
Qed.

Lemma child_set_last d t v d' : set_last d t v = Ok d' -> child d' t = Ok v.
Proof.
  unfold set_last, child. destruct d as [| | | |a|m]; try discriminate.
  - destruct (parse_usize t) as [i|]; [|discriminate]. destruct (nthN a i) as [c|] eqn:Ni; [|discriminate].
    intros [= <-]. cbv beta iota. now rewrite (nthN_setN_same a i v c Ni).
  - intros [= <-]. now rewrite oget_oset, str_eqb_refl.
Qed.

Lemma set_ptr_cons d t p v d' :
  set_ptr d (t :: p) v = Ok d' ->
  exists x, set_last d t x = Ok d' /\
    match p with [] => x = v | _ => exists c, child d t = Ok c /\ set_ptr c p v = Ok x end.
Proof.
  cbn [set_ptr]. destruct p as [|r p]; [intros H; now exists v|].
  destruct (child d t) as [c|] eqn:C; [|discriminate].
  destruct (set_ptr c (r :: p) v) as [x|] eqn:S; [|discriminate].
  intros [= <-]. exists x. split; [exact (set_last_child d t c x C)|now exists c].
Qed.

(** read-your-write *)
Lemma set_ptr_resolve_same p : forall d v d', p <> [] -> set_ptr d p v = Ok d' -> resolve d' p = Ok v.
Proof.
  induction p as [|t p IH]; intros d v d' Hne H; [contradiction|].
  apply set_ptr_cons in H as [x [L H]]. cbn [resolve]. rewrite (child_set_last d t x d' L).
  destruct p as [|r p]; [now subst x|]. destruct H as [c [_ S]]. now apply (IH c).
Qed.

Lemma sp_get_put_same path d v d' : path <> [] -> sp_put d path v = Some d' -> sp_get d' path = Some v.
Proof.
  rewrite sp_put_set_ptr, sp_get_resolve. destruct (set_ptr d path v) as [r|] eqn:S; [|discriminate].
  intros Hne [= <-]. now rewrite (set_ptr_resolve_same path d v r Hne S).
Qed.

(** two token paths diverge in a document when, walking both from the root,
    they reach a node where they select different members: different keys of an
    object, or different (numeric) slots of an array -- "1" and "01" select the
    same slot *)
Fixpoint diverge (d : json) (p q : list str) : Prop :=
  match p, q with
  | t :: p', u :: q' =>
      match d with
      | JObj m => t <> u \/ (t = u /\ exists c, oget m t = Some c /\ diverge c p' q')
      | JArr a => exists i j, parse_usize t = Some i /\ parse_usize u = Some j /\
                              (i <> j \/ (i = j /\ exists c, nthN a i = Some c /\ diverge c p' q'))
      | _ => False
      end
  | _, _ => False
  end.

(** frame: a store leaves every diverging path alone, the kind of a failed
    lookup included *)
Lemma set_ptr_resolve_frame p : forall d q v d',
  set_ptr d p v = Ok d' -> diverge d p q -> resolve d' q = resolve d q.
Proof.
  induction p as [|t p IH]; intros d q v d' H D; [destruct D|]. destruct q as [|u q]; [destruct D|].
  apply set_ptr_cons in H as [x [L H]].
  (* where both paths enter the member [c] that the store replaces by [x] *)
  assert (R : forall c, child d t = Ok c -> diverge c p q -> resolve x q = resolve c q).
  { destruct p as [|r p]; [intros c _ []|]. destruct H as [c' [C' S]].
    intros c C. rewrite C in C'. injection C' as <-. exact (IH c q v x S). }
  cbn [diverge] in D. cbn [resolve]. destruct d as [| | | |a|m]; try contradiction; cbn [set_last] in L.
  - destruct D as [i [j [Pi [Pj D]]]]. rewrite Pi in L.
    destruct (nthN a i) as [c|] eqn:Ni; [|discriminate]. injection L as <-. cbn [child]. rewrite Pj.
    destruct D as [N|[<- [c0 [[= <-] D]]]]; [now rewrite nthN_setN_other|].
    rewrite (nthN_setN_same a i x c Ni), Ni. apply (R c); [cbn [child]; now rewrite Pi, Ni|exact D].
  - injection L as <-. cbn [child]. rewrite oget_oset. destruct D as [N|[<- [c [Oc D]]]].
    + destruct (str_eqb_spec t u); [contradiction|reflexivity].
    + rewrite str_eqb_refl, Oc. apply (R c); [cbn [child]; now rewrite Oc|exact D].
Qed.

Lemma sp_get_put_frame p d q v d' : sp_put d p v = Some d' -> diverge d p q -> sp_get d' q = sp_get d q.
Proof.
  rewrite sp_put_set_ptr, !sp_get_resolve. destruct (set_ptr d p v) as [r|] eqn:S; [|discriminate].
  intros [= <-] D. now rewrite (set_ptr_resolve_frame p d q v r S D).
Qed.

Definition ckey (kv : list str * N) : str * N := (canonical_pointer (fst kv), snd kv).

(** the registry that stands for a specification state: the same document, every
    callable under the canonical pointer of its token path *)
Definition abs (s : sstate) : rstate := mkR (s_doc s) (map ckey (s_calls s)).

(** no path is the one empty token, so that distinct paths have distinct keys *)
Definition path_ok (p : list str) : Prop := p <> [[]].

Definition calls_ok (s : sstate) : Prop := Forall (fun kv => path_ok (fst kv)) (s_calls s).

Lemma fget_fset f k v k' : fget (fset f k v) k' = if str_eqb k k' then Some v else fget f k'.
Proof.
  induction f as [|[k0 v0] f IH]; cbn [fset fget]; [reflexivity|].
  destruct (str_eqb_spec k0 k) as [->|N]; cbn [fget]; [now destruct (str_eqb k k')|].
  rewrite IH. destruct (str_eqb_spec k k') as [->|]; [|reflexivity]. now destruct (str_eqb_spec k0 k').
Qed.

Lemma fget_map_ckey calls path :
  Forall (fun kv => path_ok (fst kv)) calls -> path_ok path ->
  fget (map ckey calls) (canonical_pointer path) = cget calls path.
Proof.
  intros F Hp. induction F as [|[k v] calls Hk _ IH]; [reflexivity|]. cbn [map ckey fget cget fst snd].
  rewrite canonical_pointer_eqb, IH by assumption. reflexivity.
Qed.

Lemma fset_map_ckey calls path fid :
  Forall (fun kv => path_ok (fst kv)) calls -> path_ok path ->
  fset (map ckey calls) (canonical_pointer path) fid = map ckey (cset calls path fid).
Proof.
  intros F Hp. induction F as [|[k v] calls Hk _ IH]; [reflexivity|]. cbn [map ckey fset cset fst snd].
  rewrite canonical_pointer_eqb, IH by assumption. now destruct (path_eqb k path).
Qed.

Lemma cset_ok calls path fid :
  Forall (fun kv => path_ok (fst kv)) calls -> path_ok path ->
  Forall (fun kv => path_ok (fst kv)) (cset calls path fid).
Proof.
  intros F Hp. induction F as [|[k v] calls Hk F IH]; cbn [cset]; [now repeat constructor|].
  destruct (path_eqb k path); now constructor.
Qed.

Lemma sp_decode_ok p path : sp_decode p = Some path -> path_ok path.
Proof.
  intros H. apply (parse_pointer_not_single_empty p). rewrite parse_pointer_spec, H. reflexivity.
Qed.

Lemma sp_decode_reg_ok p path : sp_decode_reg p = Some path -> path_ok path.
Proof.
  unfold sp_decode_reg. destruct p as [|c rest]; [intros [= <-]; discriminate|].
  destruct (c =? SLASH); apply sp_decode_ok.
Qed.

Definition obs3 (x : rstate * rout * calllog) : rstate * oout * calllog :=
  let '(st, r, lg) := x in (st, obs_out r, lg).

Lemma dispatch_refines s p body :
  calls_ok s ->
  let '(s', o, lg) := sp_request s p body in
  calls_ok s' /\ obs3 (dispatch (abs s) p body) = (abs s', o, lg).
Proof.
  intros Hok. unfold dispatch, sp_request. rewrite canonical_key_agrees, parse_pointer_spec.
  destruct (sp_decode p) as [path|] eqn:Dp; [|now split].
  cbn [abs r_funs r_root]. rewrite (fget_map_ckey _ _ Hok (sp_decode_ok p path Dp)), canonical_pointer_encode.
  destruct (cget (s_calls s) path) as [fid|], body as [v|]; [now split|now split| |].
  - unfold dispatch_decided, dispatch_write. rewrite parse_pointer_spec, Dp. cbn [abs r_root r_funs].
    destruct path as [|t path']; [destruct v; now split|]. rewrite sp_put_set_ptr, canonical_pointer_encode.
    destruct (set_ptr (s_doc s) (t :: path') v) as [d'|e] eqn:S; [now split|].
    cbn [to_opt obs3 obs_out]. rewrite (set_ptr_nf _ _ _ _ S). now split.
  - cbn [obs3]. rewrite obs_resolve. destruct (sp_get (s_doc s) path); now split.
Qed.

Lemma strip_pre_spec np path rest : strip_pre np path = Some rest <-> path = np ++ rest.
Proof.
  revert path; induction np as [|a np IH]; intros path; cbn [strip_pre app]; [split; congruence|].
  destruct path as [|b path]; [split; discriminate|].
  destruct (N.eqb_spec a b) as [->|N]; [|split; congruence].
  split; [intros H; f_equal; now apply IH|intros [= ->]; now apply IH].
Qed.

Lemma dispatch_root_forms st b : dispatch st [SLASH] b = dispatch st [] b.
Proof. reflexivity. Qed.

Lemma sp_request_root_forms s b : sp_request s [SLASH] b = sp_request s [] b.
Proof. reflexivity. Qed.

Lemma route_mount pre st path b :
  route (Some pre) st path b =
  match sp_mount_rest (normalize_prefix pre) path with
  | None => (st, RNoRoute, [])
  | Some rest => match decode_body b with
                 | Err e => (st, RErr e, [])
                 | Ok body => dispatch st rest body
                 end
  end.
Proof.
  unfold route, sp_mount_rest, mount_matches, pointer_for.
  destruct (normalize_prefix pre) as [|a np] eqn:N.
  - cbn [negb]. destruct path; [|reflexivity]. destruct (decode_body b); [|reflexivity].
    apply dispatch_root_forms.
  - set (npp := a :: np) in *. destruct (str_eqb_spec path npp) as [->|E].
    + cbn [orb negb]. rewrite (proj2 (strip_pre_spec npp npp []) (eq_sym (app_nil_r npp))). cbn [is_root_ptr orb].
      destruct (decode_body b); [|reflexivity]. apply dispatch_root_forms.
    + cbn [orb]. destruct (strip_pre npp path) as [[|c rest]|] eqn:S; [|cbn [starts_with is_root_ptr]|reflexivity].
      * apply strip_pre_spec in S. rewrite app_nil_r in S. contradiction.
      * destruct (c =? SLASH); cbn [negb]; [now rewrite orb_true_r|]. destruct rest; reflexivity.
Qed.

Lemma decode_body_class b e : decode_body b = Err e -> err_code e = INVALID_BODY.
Proof. destruct b as [| |[|]|[|]|]; cbn; try discriminate. intros [= <-]. reflexivity. Qed.

Lemma nolog_eq x : nolog x = (fst x, snd x, []). Proof. reflexivity. Qed.

Lemma rstep_refines prefix s o :
  calls_ok s ->
  let '(s', ob, lg) := sstep prefix s o in
  calls_ok s' /\ obs3 (rstep prefix (abs s) o) = (abs s', ob, lg).
Proof.
  intros Hok. destruct o as [p v|p fid|v|ob|p ob|p|p b|path b]; cbn [rstep sstep].
  - (* register_value *)
    unfold register_value. rewrite parse_registration_path_spec.
    destruct (sp_decode_reg p) as [[|t path]|]; [now split| |now split].
    split; [exact Hok|]. cbn [nolog fst snd obs3 abs r_root]. now rewrite reg_at_spec.
  - (* register_function *)
    unfold register_function. rewrite parse_registration_path_spec.
    destruct (sp_decode_reg p) as [[|t path]|] eqn:Dp; [now split| |now split].
    pose proof (sp_decode_reg_ok p _ Dp) as Pok. split; [now apply cset_ok|].
    cbn [nolog fst snd obs3 abs r_root r_funs s_doc s_calls].
    now rewrite reg_at_spec, (fset_map_ckey _ _ fid Hok Pok).
  - now split.
  - now split.
  - (* merge_at *)
    unfold merge_at. rewrite parse_registration_path_spec.
    destruct (sp_decode_reg p) as [[|t path]|]; [now split| |now split].
    cbn [abs r_root r_funs]. rewrite merge_ptr_resolve, sp_get_resolve.
    destruct (resolve (s_doc s) (t :: path)) as [[| | | | |m]|e] eqn:R; cbn [to_opt];
      [now split|now split|now split|now split|now split| |].
    + rewrite sp_put_set_ptr. destruct (set_ptr (s_doc s) (t :: path) _) as [d'|e] eqn:S; [now split|].
      cbn [to_opt nolog fst snd obs3 obs_out]. rewrite (set_ptr_nf _ _ _ _ S). now split.
    + cbn [nolog fst snd obs3 obs_out]. rewrite (resolve_nf _ _ _ R). now split.
  - (* read_value *)
    unfold read_value. rewrite parse_pointer_spec. destruct (sp_decode p) as [path|]; [|now split].
    cbn [obs3 abs r_root]. rewrite obs_resolve. destruct (sp_get (s_doc s) path); now split.
  - apply (dispatch_refines s p b Hok).
  - (* route *)
    destruct prefix as [pre|]; [|now split].
    rewrite route_mount. destruct (sp_mount_rest (normalize_prefix pre) path) as [rest|]; [|now split].
    destruct (decode_body b) as [body|e] eqn:Db; [apply (dispatch_refines s rest body Hok)|].
    cbn [obs3 obs_out]. rewrite (decode_body_class b e Db). now split.
Qed.

Lemma trace_refines prefix ops : forall s,
  calls_ok s -> map observe (rtrace prefix (abs s) ops) = strace prefix s ops.
Proof.
  induction ops as [|o ops IH]; intros s Hok; [reflexivity|].
  cbn [rtrace strace]. pose proof (rstep_refines prefix s o Hok) as H.
  destruct (sstep prefix s o) as [[s' ob] lg']. destruct (rstep prefix (abs s) o) as [[st' r] lg].
  destruct H as [Hok' [= -> <- <-]]. cbn [map observe]. now rewrite (IH s' Hok').
Qed.

Lemma model_refines_spec c : model_C14 c = spec_C14 c.
Proof. apply (trace_refines (c_prefix c) (c_ops c) sstate0). constructor. Qed.

Lemma oout_eqb_spec a b : reflect (a = b) (oout_eqb a b).
Proof.
  destruct a as [x| |x|], b as [y| |y|]; cbn [oout_eqb]; try (constructor; congruence).
  - destruct (json_eqb_spec x y); constructor; congruence.
  - destruct (N.eqb_spec x y); constructor; congruence.
Qed.

Lemma call_eqb_spec a b : reflect (a = b) (call_eqb a b).
Proof.
  destruct a as [f x], b as [g y]. unfold call_eqb. cbn [fst snd].
  destruct (N.eqb_spec f g), (json_eqb_spec x y); constructor; congruence.
Qed.

Lemma ostep_eqb_spec a b : reflect (a = b) (ostep_eqb a b).
Proof.
  destruct a as [o1 r1 l1], b as [o2 r2 l2]. unfold ostep_eqb. cbn [o_out o_root o_log].
  destruct (oout_eqb_spec o1 o2), (json_eqb_spec r1 r2), (leqb_spec call_eqb call_eqb_spec l1 l2);
    constructor; congruence.
Qed.

Lemma ok_C14_iff c tr : ok_C14 c tr = true <-> tr = spec_C14 c.
Proof. symmetry. apply reflect_iff, (leqb_spec ostep_eqb ostep_eqb_spec). Qed.
