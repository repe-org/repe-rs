(** Agreement of the hand-written peer-registry model (Model/Peers.v: property C18) with the
    Gallina renderings of PeerRegistry::{len, peers, get, alias, get_by, key_for, aliases_for, insert,
    remove, broadcast_each} that bin/rs2v regenerates from /repo/src/peer.rs on every run
    (Gen/PeersGen.v).  Each method is a [plan]; [run] executes it from a state: the statements say
    that it is ONE critical section (so nothing can happen between a lookup and its use), that
    this section is the model's step / query, and -- for the broadcast -- that the handles are
    snapshotted in that one section and then exactly the snapshotted peers are sent to, once each,
    outside the lock.  A method that could not be translated is [None] and its lemma degrades to
    [True]. *)
From RepeV Require Import Model.Peers Base.GenPeersPrelude Gen.PeersGen.
From RepeV Require Export Proofs.GenAgreeBase.

(** [Option<PeerHandle>]: the handle of a present peer is its id *)
Definition found (s : preg) (id : N) : option N := if q_get s id then Some id else None.
Definition pbool (o : pout) : bool := match o with PBool b => b | _ => false end.
(** the ids are strictly increasing (every reachable state: [peers_sorted_reachable]) *)
Fixpoint ssorted (l : list N) : bool :=
  match l with
  | x :: ((y :: _) as l') => (x <? y) && ssorted l'
  | _ => true
  end.

Lemma preg_eta s : mkPreg (p_peers s) (p_aliases s) (p_index s) = s.
Proof. destruct s; reflexivity. Qed.

Lemma aset_same {V} (l : list (N * V)) k v : aget l k = Some v -> aset l k v = l.
Proof.
  induction l as [|[k0 v0] l IH]; cbn [aget aset]; [discriminate|].
  destruct (N.eqb_spec k0 k) as [E|E]; intros H.
  - inversion H; subst. reflexivity.
  - now rewrite IH.
Qed.

(** [adel_absent], [memN_In] and (as [rm_step]) [purge] are in Proofs/PeersProofs.v too: this
    file is checked against Model/ and Base/ alone each time Gen/PeersGen.v is regenerated *)
Lemma adel_absent {V} (l : list (N * V)) k : aget l k = None -> adel l k = l.
Proof.
  induction l as [|[k0 v0] l IH]; cbn [aget adel]; [reflexivity|].
  destruct (k0 =? k); [discriminate|]. intros H. now rewrite IH.
Qed.

Lemma delN_filter x l : delN x l = filter (fun k => negb (N.eqb k x)) l.
Proof. induction l as [|y l IH]; cbn [delN filter]; [reflexivity|]. destruct (y =? x); cbn [negb]; now rewrite IH. Qed.

Lemma ssorted_cons2 x y l : ssorted (x :: y :: l) = (x <? y) && ssorted (y :: l).
Proof. reflexivity. Qed.

Lemma ssorted_cons_iff x l :
  ssorted (x :: l) = true <-> (forall y, In y l -> x < y) /\ ssorted l = true.
Proof.
  revert x. induction l as [|z l IH]; intros x.
  - split; [intros _; split; [intros y []|reflexivity]|reflexivity].
  - rewrite ssorted_cons2, andb_true_iff, N.ltb_lt. split.
    + intros [Hxz Hs]. split; [|exact Hs]. intros y [<-|Hy]; [exact Hxz|].
      exact (N.lt_trans _ _ _ Hxz (proj1 (proj1 (IH z) Hs) y Hy)).
    + intros [H Hs]. split; [apply H; left; reflexivity|exact Hs].
Qed.

Lemma In_insN y x l : In y (insN x l) -> y = x \/ In y l.
Proof.
  induction l as [|z l IH]; cbn [insN]; [intros [H|[]]; auto|].
  destruct (x <? z); [intros [H|H]; auto|]. destruct (x =? z); [auto|]. intros [H|H]; [right; left; exact H|].
  destruct (IH H); [auto|right; right; assumption].
Qed.

Lemma ssorted_insN x l : ssorted l = true -> ssorted (insN x l) = true.
Proof.
  induction l as [|y l IH]; intros H; cbn [insN]; [reflexivity|].
  apply ssorted_cons_iff in H as [Hy Hl]. destruct (N.ltb_spec x y) as [E1|E1].
  - apply ssorted_cons_iff. split; [|apply ssorted_cons_iff; split; assumption].
    intros z [<-|Hz]; [exact E1|exact (N.lt_trans _ _ _ E1 (Hy z Hz))].
  - destruct (N.eqb_spec x y) as [E2|E2]; apply ssorted_cons_iff; [split; assumption|].
    split; [|exact (IH Hl)]. intros z Hz. apply In_insN in Hz as [->|Hz]; [|exact (Hy z Hz)].
    apply N.le_neq. split; [exact E1|]. intros ->. exact (E2 eq_refl).
Qed.

Lemma ssorted_delN x l : ssorted l = true -> ssorted (delN x l) = true.
Proof.
  induction l as [|y l IH]; intros H; cbn [delN]; [reflexivity|].
  apply ssorted_cons_iff in H as [Hy Hl]. destruct (y =? x); [exact (IH Hl)|].
  apply ssorted_cons_iff. split; [|exact (IH Hl)].
  intros z Hz. rewrite delN_filter in Hz. apply filter_In in Hz as [Hz _]. exact (Hy z Hz).
Qed.

Lemma ssorted_NoDup l : ssorted l = true -> NoDup l.
Proof.
  induction l as [|x l IH]; intros H; constructor; apply ssorted_cons_iff in H as [Hx Hl].
  - intros Hin. exact (N.lt_irrefl _ (Hx x Hin)).
  - exact (IH Hl).
Qed.

Lemma memN_In x l : memN x l = true -> In x l.
Proof.
  induction l as [|y l IH]; cbn [memN]; [discriminate|]. intros H.
  apply orb_true_iff in H as [H|H]; [left; apply N.eqb_eq; exact H|right; exact (IH H)].
Qed.

Lemma ids_fold l : forall acc, NoDup (acc ++ l) ->
  fold_left (fun out id => ids_insert id out) l acc = acc ++ l.
Proof.
  induction l as [|x l IH]; intros acc ND; cbn [fold_left]; [symmetry; apply app_nil_r|].
  unfold ids_insert at 2. destruct (memN x acc) eqn:E.
  - destruct (NoDup_remove_2 _ _ _ ND). apply in_or_app. left. exact (memN_In _ _ E).
  - rewrite IH, <- app_assoc; [reflexivity|]. rewrite <- app_assoc. exact ND.
Qed.

Lemma peer_len_agrees :
  match gen_peer_len with Some f => forall s, run f s = (s, [], 1%nat, q_len s) | None => True end.
Proof. gen_start. all: intros s; reflexivity. Qed.

Lemma peer_peers_agrees :
  match gen_peer_peers with Some f => forall s, run f s = (s, [], 1%nat, p_peers s) | None => True end.
Proof. gen_start. all: intros s; reflexivity. Qed.

Lemma peer_get_agrees :
  match gen_peer_get with Some f => forall s id, run (f id) s = (s, [], 1%nat, found s id) | None => True end.
Proof. gen_start. all: intros s id; reflexivity. Qed.

Lemma peer_get_by_agrees :
  match gen_peer_get_by with Some f => forall s key, run (f key) s = (s, [], 1%nat, q_get_by s key) | None => True end.
Proof.
  gen_start. all: intros s key; unfold q_get_by; cbn [run]; cbv zeta.
  all: destruct (aget (p_aliases s) key) as [id|]; cbn [run]; reflexivity.
Qed.

Lemma peer_key_for_agrees :
  match gen_peer_key_for with Some f => forall s id, run (f id) s = (s, [], 1%nat, q_key_for s id) | None => True end.
Proof.
  gen_start. all: intros s id; unfold q_key_for, q_aliases_for; cbn [run].
  all: destruct (aget (p_index s) id) as [[|k ks]|]; reflexivity.
Qed.

Lemma peer_aliases_for_agrees :
  match gen_peer_aliases_for with Some f => forall s id, run (f id) s = (s, [], 1%nat, q_aliases_for s id) | None => True end.
Proof. gen_start. all: intros s id; unfold q_aliases_for; cbn [run]; destruct (aget (p_index s) id); reflexivity. Qed.

Lemma peer_insert_agrees :
  match gen_peer_insert with Some f => forall s id, run (f id) s = (fst (pstep s (PInsert id)), [], 1%nat, tt) | None => True end.
Proof. gen_start. all: intros s id; reflexivity. Qed.

(** the loop of [remove] over the removed index entry, on the alias map alone *)
Definition purge (id : N) (al : list (N * N)) (key : N) : list (N * N) :=
  match aget al key with
  | Some owner => if owner =? id then adel al key else al
  | None => al
  end.
Lemma fold_purge (f : preg -> N -> preg) id :
  (forall s key, f s key = set_p_aliases s (purge id (p_aliases s) key)) ->
  forall keys s, fold_left f keys s = set_p_aliases s (fold_left (purge id) keys (p_aliases s)).
Proof.
  intros H. induction keys as [|k keys IH]; intros s; cbn [fold_left].
  - unfold set_p_aliases. now rewrite preg_eta.
  - rewrite IH, H. reflexivity.
Qed.

Lemma peer_remove_agrees :
  match gen_peer_remove with Some f => forall s id, run (f id) s = (fst (pstep s (PRemove id)), [], 1%nat, found s id) | None => True end.
Proof.
  gen_start. all: intros s id; cbn [pstep]; unfold p_remove, found, q_get; cbn [run]; cbv zeta.
  all: cbn [p_peers p_aliases p_index set_p_peers set_p_aliases set_p_index].
  all: destruct (aget (p_index s) id) as [keys|] eqn:Ei; cbn [run fst]; [|unfold set_p_index, set_p_peers; cbn [p_peers p_aliases p_index]; rewrite (adel_absent _ _ Ei); reflexivity].
  all: match goal with |- context [fold_left ?f ?l0 ?s0] =>
         rewrite (fold_purge f id) by (intros s1 k1; unfold purge, opt_eqb; cbn [p_aliases set_p_aliases];
                                       destruct (aget (p_aliases s1) k1) as [o|]; [destruct (N.eqb o id)|]; cbv zeta;
                                       unfold set_p_aliases; rewrite ?preg_eta; reflexivity) end.
  all: reflexivity.
Qed.

Lemma peer_alias_agrees :
  match gen_peer_alias with
  | Some f => forall s id key, run (f id key) s = (fst (pstep s (PAlias id key)), [], 1%nat, pbool (snd (pstep s (PAlias id key))))
  | None => True
  end.
Proof.
  gen_start. all: intros s id key; cbn [pstep]; unfold p_alias; cbn [run]; cbv zeta.
  all: cbn [p_peers p_aliases p_index set_p_peers set_p_aliases set_p_index].
  all: destruct (memN id (p_peers s)); cbn [negb run fst snd pbool]; [|reflexivity].
  all: destruct (aget (p_aliases s) key) as [prev|] eqn:Ea; [|reflexivity].
  all: rewrite ?(N.eqb_sym id prev); destruct (N.eqb_spec prev id) as [->|Hne]; cbn [run fst snd pbool].
  all: try (unfold set_p_aliases; rewrite (aset_same _ _ _ Ea), preg_eta; reflexivity).
  all: cbn [p_peers p_aliases p_index]; destruct (aget (p_index s) prev) as [keys|]; cbn [run fst snd pbool p_peers p_aliases p_index];
       rewrite <- ?delN_filter; unfold o_unwrap_or; reflexivity.
Qed.

(** a plan run from where another one ended: the sends are appended, the
    critical sections added *)
Definition then_run {A B} (r : preg * list N * nat * A) (k : A -> preg -> preg * list N * nat * B)
    : preg * list N * nat * B :=
  let '(s1, sends1, n1, a) := r in
  let '(s2, sends2, n2, b) := k a s1 in (s2, sends1 ++ sends2, (n1 + n2)%nat, b).

Lemma run_pbind {A B} : forall (p : plan A) (k : A -> plan B) s,
  run (pbind p k) s = then_run (run p s) (fun a => run (k a)).
Proof.
  (* [fix], not [induction]: the sub-plan of [PStep f] is a component of [f s], for which
     [plan_ind] gives no hypothesis *)
  fix IH 1. intros [a|f|id p'] k s; cbn [pbind run].
  - unfold then_run. destruct (run (k a) s) as [[[s2 sends2] n2] b]. reflexivity.
  - destruct (f s) as [s' p']. rewrite IH. destruct (run p' s') as [[[s1 sends1] n1] a].
    unfold then_run. destruct (run (k a) s1) as [[[s2 sends2] n2] b]. reflexivity.
  - rewrite IH. destruct (run p' s) as [[[s1 sends1] n1] a].
    unfold then_run. destruct (run (k a) s1) as [[[s2 sends2] n2] b]. reflexivity.
Qed.

(** a loop whose every iteration sends to its element once, records it and takes no lock *)
Lemma run_for_send {R} (body : N -> list N -> (list N -> plan R) -> plan R) :
  (forall x st k s, run (body x st k) s = let '(s', sends, n, r) := run (k (ids_insert x st)) s in (s', x :: sends, n, r)) ->
  forall l st k s,
  run (for_plan body l st k) s =
  let '(s', sends, n, r) := run (k (fold_left (fun out id => ids_insert id out) l st)) s in (s', l ++ sends, n, r).
Proof.
  intros H. induction l as [|x l IH]; intros st k s; cbn [for_plan fold_left app].
  - destruct (run (k st) s) as [[[s' sends] n] r]. reflexivity.
  - rewrite H, IH. destruct (run _ s) as [[[s' sends] n] r]. reflexivity.
Qed.

Lemma peer_broadcast_each_agrees :
  match gen_peer_broadcast_each with
  | Some f => forall s, ssorted (p_peers s) = true -> run f s = (s, p_peers s, 1%nat, p_peers s)
  | None => True
  end.
Proof.
  pose proof peer_peers_agrees as Hp.
  gen_start. all: intros s Hs; callee Hp; rewrite run_pbind, Hp; unfold then_run.
  all: rewrite run_for_send by (intros x st k s0; cbn [run]; destruct (run _ s0) as [[[s' sends] n] r]; reflexivity).
  all: cbn [run]; rewrite ids_fold by exact (ssorted_NoDup _ Hs); rewrite app_nil_r; reflexivity.
Qed.

Lemma peers_sorted_step s o : ssorted (p_peers s) = true -> ssorted (p_peers (fst (pstep s o))) = true.
Proof.
  intros H. destruct o as [id|id|id key|]; cbn [pstep fst p_peers].
  - apply ssorted_insN, H.
  - unfold p_remove. destruct (aget (p_index s) id); cbn [fst p_peers]; apply ssorted_delN, H.
  - unfold p_alias. destruct (negb _); [exact H|]. destruct (aget (p_aliases s) key) as [prev|]; [destruct (prev =? id)|]; exact H.
  - exact H.
Qed.
Lemma peers_sorted_reachable ops : forall s, ssorted (p_peers s) = true ->
  ssorted (p_peers (fold_left (fun c o => fst (pstep c o)) ops s)) = true.
Proof. induction ops as [|o ops IH]; intros s H; cbn [fold_left]; [exact H|]. apply IH, peers_sorted_step, H. Qed.

(** ** what the right-hand sides above are in terms of the model's results *)
Lemma remove_reports_found s id : snd (pstep s (PRemove id)) = PBool (opt_is_some (found s id)).
Proof.
  cbn [pstep]. unfold p_remove, found, q_get.
  destruct (aget (p_index s) id); cbn [snd]; destruct (memN id (p_peers s)); reflexivity.
Qed.

Lemma alias_reports_bool s id key : exists b, snd (pstep s (PAlias id key)) = PBool b.
Proof.
  cbn [pstep]. unfold p_alias. destruct (negb _); [eexists; reflexivity|].
  destruct (aget (p_aliases s) key) as [prev|]; [destruct (prev =? id)|]; eexists; reflexivity.
Qed.
