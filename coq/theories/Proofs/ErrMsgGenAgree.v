(** Agreement of the model's [build] (Model/Message.v) with the Gallina renderings of
    Message::builder, MessageBuilder::{error_code, body_bytes, body_format}, create_error_message and
    create_error_response_like that bin/rs2v regenerates from /repo/src/message.rs on every run
    (Gen/ErrMsgGen.v): the error messages that frame_outbound (C17) and spawn_off_reader (C16) queue
    are the model's [build] of the default builder with the error code, the text as a UTF-8 body
    and -- for the response form -- the request's id and query.  A function that could not be
    translated is [None] and its lemma degrades to [True]. *)
From RepeV Require Import Base.GenOutboundPrelude Gen.BuildGen Gen.ErrMsgGen Proofs.MessageProofs Proofs.BuildGenAgree.
From RepeV Require Export Proofs.GenAgreeBase.
From Coq Require Import ZifyBool Lia.

Local Open Scope N_scope.

(** [create_error_message(code, text)].  The hand model of src/message.rs has no counterpart;
    Model/Limits.v writes out the one message it needs of this form, [replacement]
    (OutboundGenAgree.[error_message_replacement] is the link). *)
Definition error_message (code : N) (text : list byte) : message :=
  build (mkBuilder 0 [] text 0 BF_UTF8 false code).
(** [create_error_response_like(request, code, text)]: the same with the request's id and query,
    lengths recomputed *)
Definition error_response_like (r : message) (code : N) (text : list byte) : message :=
  let e := error_message code text in
  let h := set_h_qlen (set_h_id (m_hdr e) (h_id (m_hdr r))) (lenN (m_query r)) in
  mkMessage (set_h_length h (HEADER_SIZE + h_qlen h + h_blen h)) (m_query r) (m_body e).

Lemma msg_builder_agrees :
  match gen_msg_builder with Some f => f = Ok (mkBuilder 0 [] [] 0 0 false 0) | None => True end.
Proof. gen_start. all: reflexivity. Qed.

Lemma builder_error_code_agrees :
  match gen_builder_error_code with
  | Some f => forall b ec, f b ec = Ok (mkBuilder (b_id b) (b_query b) (b_body b) (b_qfmt b) (b_bfmt b) (b_notify b) ec)
  | None => True
  end.
Proof. gen_start. all: intros; reflexivity. Qed.

Lemma builder_body_bytes_agrees :
  match gen_builder_body_bytes with
  | Some f => forall b x, f b x = Ok (mkBuilder (b_id b) (b_query b) x (b_qfmt b) (b_bfmt b) (b_notify b) (b_ec b))
  | None => True
  end.
Proof. gen_start. all: intros; reflexivity. Qed.

Lemma builder_body_format_agrees :
  match gen_builder_body_format with
  | Some f => forall b x, f b x = Ok (mkBuilder (b_id b) (b_query b) (b_body b) (b_qfmt b) x (b_notify b) (b_ec b))
  | None => True
  end.
Proof. gen_start. all: intros; reflexivity. Qed.

(** [create_error_message]: panic-free for every text that fits a frame *)
Lemma create_error_message_agrees :
  match gen_create_error_message with
  | Some f => forall code text, HEADER_SIZE + lenN text < two64 -> f code text = Ok (error_message code text)
  | None => True
  end.
Proof.
  pose proof msg_builder_agrees as H0. pose proof builder_error_code_agrees as H1. pose proof builder_body_bytes_agrees as H2.
  pose proof builder_body_format_agrees as H3. pose proof build_agrees as H4. gen_start.
  all: intros code text Hlen; callee H0; callee H1; callee H2; callee H3; callee H4.
  all: repeat (first [rewrite H0 | rewrite H1 | rewrite H2 | rewrite H3]; cbn [bind b_id b_query b_body b_qfmt b_bfmt b_notify b_ec]).
  all: rewrite H4; cbn [b_query b_body].
  all: replace (HEADER_SIZE + lenN (@nil byte) + lenN text <? two64) with true by (unfold lenN in *; cbn [length]; lia); reflexivity.
Qed.

Lemma create_error_response_like_agrees :
  match gen_create_error_response_like with
  | Some f => forall r code text, HEADER_SIZE + lenN (m_query r) + lenN text < two64 ->
      f r code text = Ok (error_response_like r code text)
  | None => True
  end.
Proof.
  pose proof create_error_message_agrees as Hc. gen_start.
  all: intros r code text Hlen; callee Hc; rewrite Hc by lia; cbn [bind].
  all: unfold error_response_like, error_message, build; cbn [m_hdr m_query m_body set_m_hdr set_m_query set_h_id set_h_qlen set_h_length
         h_length h_spec h_version h_notify h_reserved h_id h_qlen h_blen h_qfmt h_bfmt h_ec b_id b_query b_body b_qfmt b_bfmt b_notify b_ec].
  (* Base/GenStrPrelude.v has its own name for [lenN] *)
  all: change (@len_n byte) with (@lenN byte).
  all: rewrite add64_ok by lia; cbn [bind]; rewrite add64_ok by lia; reflexivity.
Qed.
