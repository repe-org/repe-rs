(** The routing / dispatch model (Model/Route.v): what a handler returns is
    brought into the form the writers send ([fin_res]).  In that form the frame
    and the number of runs of the user function do not depend on the mode
    ([View] / [Owned]) that [run_kind] and [run_handler] thread through, only on
    [body_class] and [mw_refusal]: [canon_dispatch] and [dispatch_invocations]
    ([run_handler_fin]).  Every entry point is then one step function
    [path_step] of a flag "off the reader task"; that step meets the decision
    table of C03 (frame, invocation counts, middleware count), and pipelines and
    the oracle follow request by request. *)
From RepeV Require Import Model.Route.

Lemma beqb_refl a : beqb a a = true.
Proof. induction a as [|x a IH]; cbn [beqb]; [reflexivity|]. now rewrite N.eqb_refl, IH. Qed.

Lemma beqb_eq a b : beqb a b = true -> a = b.
Proof.
  revert b; induction a as [|x a IH]; intros [|y b] H; cbn [beqb] in H; try discriminate; [reflexivity|].
  apply andb_true_iff in H as [H1 H2]. apply N.eqb_eq in H1. subst. f_equal. now apply IH.
Qed.

Lemma beqb_nil_r a : beqb a [] = match a with [] => true | _ => false end.
Proof. now destruct a. Qed.

Lemma resp_eqb_refl p : resp_eqb p p = true.
Proof. unfold resp_eqb. now rewrite !N.eqb_refl, !beqb_refl. Qed.

Lemma forall2b_refl {A} (f : A -> A -> bool) (Hf : forall x, f x x = true) l : forall2b f l l = true.
Proof. induction l as [|x l IH]; cbn [forall2b]; [reflexivity|]. now rewrite Hf, IH. Qed.

Lemma perm_eqb_refl l : perm_eqb l l = true.
Proof.
  induction l as [|p l IH]; cbn [perm_eqb take_id]; [reflexivity|].
  now rewrite N.eqb_refl, resp_eqb_refl, IH.
Qed.

Lemma listN_eqb_refl l : listN_eqb l l = true.
Proof. induction l as [|x l IH]; cbn [listN_eqb]; [reflexivity|]. now rewrite N.eqb_refl, IH. Qed.

Lemma memN_In x l : memN x l = true <-> In x l.
Proof.
  induction l as [|y l IH]; cbn [memN In]; [split; [discriminate|intros []]|].
  now rewrite orb_true_iff, IH, N.eqb_eq.
Qed.

Lemma nodupN_NoDup l : nodupN l = true -> NoDup l.
Proof.
  induction l as [|x l IH]; cbn [nodupN]; intros H; [constructor|].
  apply andb_true_iff in H as [H1 H2]. constructor; [|now apply IH].
  intros Hin. apply memN_In in Hin. now rewrite Hin in H1.
Qed.

Lemma Forall2_weaken {A B} (P Q : A -> B -> Prop) l l' :
  (forall a b, P a b -> Q a b) -> Forall2 P l l' -> Forall2 Q l l'.
Proof. intros W. induction 1; constructor; auto. Qed.

Lemma Forall2_filter {A B} (Q : A -> B -> Prop) (f : A -> bool) (g : B -> bool) l l' :
  Forall2 (fun a b => Q a b /\ f a = g b) l l' -> Forall2 Q (filter f l) (filter g l').
Proof.
  induction 1 as [|a b l l' [HQ E] F IH]; cbn [filter]; [constructor|].
  rewrite <- E. destruct (f a); [constructor|]; assumption.
Qed.

Lemma nodup_map_inj {A} (f : A -> N) l x y :
  NoDup (map f l) -> In x l -> In y l -> f x = f y -> x = y.
Proof.
  induction l as [|a l IH]; cbn [map In]; intros ND Hx Hy E; [contradiction|].
  inversion ND as [|? ? Hnin ND']; subst.
  destruct Hx as [->|Hx], Hy as [->|Hy]; try reflexivity.
  - exfalso. apply Hnin. rewrite E. now apply in_map.
  - exfalso. apply Hnin. rewrite <- E. now apply in_map.
  - now apply IH.
Qed.

Lemma finish_stamp_echo r p : finish_stamp r p = finish_echo r p.
Proof.
  unfold finish_stamp, finish_echo. destruct p as [i e qf bf q b]; cbn.
  destruct (q_query r) as [|x rq], q as [|y q]; reflexivity.
Qed.

Lemma finish_echo_err m r c msg : finish_echo r (err_resp m r c msg) = err_like r c msg.
Proof.
  destruct m; unfold err_resp, err_view, err_like, finish_echo; cbn; [reflexivity|].
  destruct (q_query r); reflexivity.
Qed.

Lemma finish_echo_ok r bf b :
  finish_echo r (ok_resp r bf b) = mkResp (q_id r) 0 (echo_qfmt (q_qfmt r)) bf (q_query r) b.
Proof. reflexivity. Qed.

Definition fin_res (r : request) (res : hres) : option resp :=
  match res with
  | HOk p => Some (finish_echo r p)
  | HErr c m => Some (err_like r c m)
  | HPanic => None
  end.

Definition fin_user (r : request) : option resp :=
  match o_user r with
  | UVal bf b => Some (mkResp (q_id r) 0 (echo_qfmt (q_qfmt r)) bf (q_query r) b)
  | UMsg ec qf bf q b => Some (mkResp (q_id r) ec qf bf (match q with [] => q_query r | _ => q end) b)
  | UErr c msg => Some (err_like r c msg)
  | UPanic => None
  end.

Lemma fin_user_res m r : fin_res r (user_res m r) = fin_user r.
Proof.
  unfold user_res, fin_user. destruct (o_user r) as [bf b|ec qf bf q b|c msg|]; cbn [fin_res]; try reflexivity.
  - unfold finish_echo; cbn. now destruct q.
  - now rewrite finish_echo_err.
Qed.

Lemma fin_user_res_erased r : fin_res r (user_res_erased r) = fin_user r.
Proof.
  unfold user_res_erased, fin_user. destruct (o_user r) as [bf b|ec qf bf q b|c msg|]; cbn [fin_res]; try reflexivity.
  unfold finish_echo; cbn. now destruct q.
Qed.

(** the text of a kind's InvalidBody answer to a body format it does not accept *)
Definition badfmt_text (h : handler) (r : request) : list byte :=
  match h_kind h with
  | KSlice | KSliceRef => msg_expected_beve
  | KStruct => msg_struct_pre ++ q_query r ++ msg_struct_mid ++ dec (q_bfmt r)
  | KRegistry => msg_reg_pre ++ dec (q_bfmt r) ++ msg_reg_post
  | _ => msg_expected_json
  end.

Definition decfail_text (r : request) : list byte := match o_decfail r with Some t => t | None => [] end.

(** the frame for a request the middleware lets through, and how often the
    user function runs for it: by the class of the body alone, whatever the mode *)
Definition canon_body (h : handler) (r : request) : option resp :=
  match body_class h r with
  | BBadFormat => Some (err_like r EC_BODY (badfmt_text h r))
  | BUndecodable => Some (err_like r (undecodable_code (h_kind h)) (decfail_text r))
  | BOk => fin_user r
  end.

Definition kind_invocations (mount : list byte) (h : handler) (r : request) : nat :=
  match body_class h r with
  | BOk => match h_kind h with
           | KRegistry => if negb (beqb (q_body r) []) && bmem (reg_pointer mount (q_query r)) (h_fns h) then 1%nat else O
           | _ => 1%nat
           end
  | _ => O
  end.

(** every kind that decodes its body does so behind the same gate: is the
    format accepted ([acc]), does the body decode; [cls] is [body_class] there *)
Lemma gate_fin r (acc : bool) (undec : list byte -> hres) (go : hres) (n : nat) (bad : resp)
      (o_go : option resp) (o_bad o_undec : resp)
      (cls := if negb acc then BBadFormat else match o_decfail r with Some _ => BUndecodable | None => BOk end) :
  fin_res r go = o_go -> finish_echo r bad = o_bad -> fin_res r (undec (decfail_text r)) = Some o_undec ->
  exists res,
    (if acc then match o_decfail r with Some msg => (undec msg, O) | None => (go, n) end else (HOk bad, O))
    = (res, match cls with BOk => n | _ => O end) /\
    fin_res r res = match cls with BOk => o_go | BBadFormat => Some o_bad | BUndecodable => Some o_undec end.
Proof.
  intros <- <- <-. subst cls. unfold decfail_text.
  destruct acc; [destruct (o_decfail r)|]; eexists; split; reflexivity.
Qed.

Lemma run_kind_fin m mount h r :
  exists res, run_kind m mount h r = (res, kind_invocations mount h r) /\ fin_res r res = canon_body h r.
Proof.
  unfold run_kind, kind_invocations, canon_body, body_class, badfmt_text.
  destruct (h_kind h); cbn [decodes_body empty_is_read accepts undecodable_code negb andb].
  (* the arguments of [gate_fin] are read off the goal: [acc], [undec], [go], [n], [bad]
     from the kind's [run_json_like] / [run_slice], the three frames from [canon_body] *)
  1-7: apply gate_fin; [apply fin_user_res | apply finish_echo_err | reflexivity].
  - unfold run_struct. destruct (q_body r) as [|x b]; cbn [beqb].
    + exists (user_res Owned r). split; [reflexivity|apply fin_user_res].
    + apply gate_fin; [apply fin_user_res | apply (finish_echo_err Owned) | reflexivity].
  - unfold run_registry. destruct (q_body r) as [|x b]; cbn [beqb negb andb].
    + exists (user_res Owned r). split; [reflexivity|apply fin_user_res].
    + apply gate_fin; [apply fin_user_res | apply (finish_echo_err Owned) | exact (f_equal Some (finish_echo_err Owned r EC_BODY _))].
  - exists (user_res_erased r). split; [reflexivity|apply fin_user_res_erased].
Qed.

Definition canon_dispatch (rt : router) (h : handler) (r : request) : option resp :=
  match mw_refusal rt r with
  | Some (c, msg) => Some (err_like r c msg)
  | None => canon_body h r
  end.

Definition dispatch_invocations (rt : router) (mount : list byte) (h : handler) (r : request) : nat :=
  match mw_refusal rt r with Some _ => O | None => kind_invocations mount h r end.

Lemma run_handler_fin dm rt mount h r :
  exists res, run_handler dm rt mount h r = (res, dispatch_invocations rt mount h r, if rt_mw rt then 1%nat else O) /\
              fin_res r res = canon_dispatch rt h r.
Proof.
  unfold run_handler, canon_dispatch, dispatch_invocations, mw_refusal.
  destruct (rt_mw rt).
  - destruct (o_mw r) as [[c msg]|]; [eexists; split; reflexivity|].
    destruct (run_kind_fin Owned mount h r) as (res & -> & F). now exists res.
  - destruct (run_kind_fin (inner_mode dm rt h) mount h r) as (res & -> & F). now exists res.
Qed.

Lemma canon_dispatch_none rt h r : canon_dispatch rt h r = None -> panics r = true.
Proof.
  unfold canon_dispatch, canon_body, fin_user, panics.
  destruct (mw_refusal rt r) as [[c msg]|]; [discriminate|].
  destruct (body_class h r); try discriminate. now destruct (o_user r).
Qed.

Definition expect_err (r : request) (c : N) : expect := mkExp (q_id r) c 0 3 (q_query r) None.

(** [route], [dispatched] and [spec_expect] make the same tests in the same order *)
Lemma route_cases rt r :
  match route rt r with
  | RReject c _ => dispatched rt r = None /\ forall shed, spec_expect shed rt r = expect_err r c
  | RDispatch m h =>
      (q_version r =? 1) = true /\ (q_qfmt r =? 1) = true /\ o_utf8 r = true /\ router_get rt (q_query r) = Some (m, h)
  end.
Proof.
  unfold route, dispatched, spec_expect.
  destruct (q_version r =? 1); cbn [negb andb]; [|auto].
  destruct (q_qfmt r =? 1); cbn [negb andb orb]; [|auto].
  destruct (o_utf8 r); cbn [negb]; [|auto].
  destruct (router_get rt (q_query r)) as [[m h]|]; auto.
Qed.

Lemma dispatched_eq rt r :
  dispatched rt r = match route rt r with RReject _ _ => None | RDispatch m h => Some (m, h) end.
Proof.
  pose proof (route_cases rt r) as C. destruct (route rt r) as [c msg|m h]; [apply C|].
  unfold dispatched. now destruct C as (-> & -> & -> & ->).
Qed.

Lemma dispatched_route rt r m h : dispatched rt r = Some (m, h) <-> route rt r = RDispatch m h.
Proof. rewrite dispatched_eq. destruct (route rt r); split; intros [= -> ->]; reflexivity. Qed.

Definition answer (r : request) (o : option resp) : option resp := if is_notify r then None else o.

(** a dispatched request; [off]: the handler runs off the reader task, where a
    permit is needed first and a panic is caught and answered *)
Definition dispatch_step (off : bool) (rt : router) (mount : list byte) (h : handler) (r : request) : stepres :=
  if off && o_sat r then mkStep (answer r (Some (err_like r EC_EXHAUSTED msg_saturated))) [] O
  else mkStep (answer r (match canon_dispatch rt h r with
                         | Some p => Some p
                         | None => if off then Some (err_like r EC_INTERNAL msg_panicked) else None
                         end))
              (inv_of h (dispatch_invocations rt mount h r)) (if rt_mw rt then 1%nat else O).

Definition path_step (off : bool) (rt : router) (r : request) : stepres :=
  match route rt r with
  | RReject c msg => mkStep (answer r (Some (err_like r c msg))) [] O
  | RDispatch mount h => dispatch_step off rt mount h r
  end.

Lemma inline_step_path fin rt r :
  (forall p, fin r p = finish_echo r p) -> inline_step fin rt r = path_step false rt r.
Proof.
  intros Hfin. unfold inline_step, path_step, dispatch_step, answer.
  destruct (route rt r) as [c msg|mount h]; [now rewrite Hfin, (finish_echo_err View)|].
  destruct (run_handler_fin View rt mount h r) as (res & -> & <-).
  destruct res as [p|c msg|]; cbn [fin_res andb]; rewrite ?Hfin, ?(finish_echo_err View); reflexivity.
Qed.

Lemma offreader_dispatch_path rt mount h r : offreader_dispatch rt mount h r = dispatch_step true rt mount h r.
Proof.
  unfold offreader_dispatch, dispatch_step, answer. cbn [andb]. destruct (o_sat r); [reflexivity|].
  destruct (run_handler_fin Owned rt mount h r) as (res & -> & <-).
  destruct res as [p|c msg|]; cbn [fin_res]; rewrite finish_stamp_echo, ?(finish_echo_err Owned); reflexivity.
Qed.

Lemma wso_step_path rt r : wso_step rt r = path_step true rt r.
Proof.
  unfold wso_step, path_step. destruct (route rt r) as [c msg|mount h]; [|apply offreader_dispatch_path].
  now rewrite finish_stamp_echo, (finish_echo_err View).
Qed.

Lemma tcp_step_path rt r : tcp_step rt r = path_step false rt r.
Proof. now apply inline_step_path. Qed.

Lemma wsi_step_path rt r : wsi_step rt r = path_step false rt r.
Proof. apply inline_step_path. intros p. apply finish_stamp_echo. Qed.

Lemma ws_step_path rt r : ws_step rt r = path_step (spec_off rt r) rt r.
Proof.
  unfold ws_step, spec_off. rewrite wsi_step_path, dispatched_eq. unfold path_step.
  destruct (route rt r) as [c msg|m h]; [reflexivity|].
  rewrite offreader_dispatch_path. destruct (h_off h); reflexivity.
Qed.

Definition off_path (p : path) : bool := match p with PWsOff => true | _ => false end.

Lemma step_of_path p rt r : step_of p rt r = path_step (off_path p) rt r.
Proof.
  (* [PAsync] like [PTcp]: Model/Route.v defines [async_step] and [tcp_step] as the one
     [inline_step finish_echo], so that the two TCP loops agree holds by definition *)
  destruct p; [apply tcp_step_path..|apply wsi_step_path|apply wso_step_path].
Qed.

Lemma meets_err r c msg : resp_meets (expect_err r c) (err_like r c msg) = true.
Proof. unfold resp_meets, err_like; cbn. now rewrite !N.eqb_refl, beqb_refl. Qed.

Lemma meets_self i e qf bf q b : resp_meets (mkExp i e qf bf q (Some b)) (mkResp i e qf bf q b) = true.
Proof. unfold resp_meets; cbn. now rewrite !N.eqb_refl, !beqb_refl. Qed.

Lemma inv_of_0 h : inv_of h 0 = []. Proof. reflexivity. Qed.
Lemma inv_of_1 h : inv_of h 1 = [h_rid h]. Proof. reflexivity. Qed.

(** invocations, middleware count and frame are those of the table, for a
    request shed exactly when the path is off the reader and no permit is free *)
Lemma path_step_counts off rt r :
  s_inv (path_step off rt r) = match spec_invoked (off && o_sat r) rt r with Some x => [x] | None => [] end /\
  s_mw (path_step off rt r) = (if spec_mw (off && o_sat r) rt r then 1%nat else O).
Proof.
  unfold path_step, spec_invoked, spec_mw. rewrite dispatched_eq.
  destruct (route rt r) as [c msg|m h]; [now split|].
  unfold dispatch_step. destruct (off && o_sat r); cbn [s_inv s_mw negb]; [now rewrite andb_false_r|].
  rewrite andb_true_r. split; [|reflexivity]. unfold dispatch_invocations, kind_invocations.
  destruct (mw_refusal rt r); [reflexivity|]. destruct (body_class h r); try reflexivity.
  destruct (h_kind h); try reflexivity.
  now destruct (negb (beqb (q_body r) []) && bmem (reg_pointer m (q_query r)) (h_fns h)).
Qed.

Lemma path_step_meets off rt r p :
  s_resp (path_step off rt r) = Some p -> resp_meets (spec_expect (off && o_sat r) rt r) p = true.
Proof.
  pose proof (route_cases rt r) as C. unfold path_step, answer.
  destruct (route rt r) as [c msg|m h].
  { destruct C as [_ ->]. cbn [s_resp]. destruct (is_notify r); intros [= <-]. apply meets_err. }
  unfold spec_expect. destruct C as (-> & Q & -> & ->). rewrite Q. cbn [negb orb].
  unfold dispatch_step, answer. destruct (off && o_sat r); cbn [s_resp].
  { destruct (is_notify r); intros [= <-]. apply meets_err. }
  destruct (is_notify r); [discriminate|]. unfold canon_dispatch.
  destruct (mw_refusal rt r) as [[c msg]|]; [intros [= <-]; apply meets_err|].
  unfold canon_body. destruct (body_class h r); [|intros [= <-]; apply meets_err..].
  apply N.eqb_eq in Q. unfold fin_user, echo_qfmt. rewrite Q. cbn [N.eqb Pos.eqb].
  destruct (o_user r) as [bf b|ec qf bf q b|c msg|]; [| | |destruct off]; intros [= <-];
    first [apply meets_self | apply meets_err].
Qed.

Lemma resp_meets_fields x p :
  resp_meets x p = true ->
  p_id p = x_id x /\ p_ec p = x_ec x /\ p_qfmt p = x_qfmt x /\ p_bfmt p = x_bfmt x /\ p_query p = x_query x /\
  (forall b, x_body x = Some b -> p_body p = b).
Proof.
  unfold resp_meets. intros H.
  apply andb_true_iff in H as [H H6]. apply andb_true_iff in H as [H H5]. apply andb_true_iff in H as [H H4].
  apply andb_true_iff in H as [H H3]. apply andb_true_iff in H as [H1 H2].
  apply N.eqb_eq in H1, H2, H3, H4. apply beqb_eq in H5.
  repeat split; try congruence.
  intros b Hb. rewrite Hb in H6. symmetry. now apply beqb_eq.
Qed.

(** the response query is the request's, unless the handler set its own *)
Definition query_rule (r : request) (p : resp) : Prop :=
  p_query p = q_query r \/
  exists ec qf bf q b, o_user r = UMsg ec qf bf q b /\ q <> [] /\ p_query p = q.

(** every row of the table is an error row, the user function's value or its own message *)
Lemma spec_expect_rows (P : expect -> Prop) shed rt r :
  (forall c, P (expect_err r c)) ->
  (forall bf b, o_user r = UVal bf b -> P (mkExp (q_id r) 0 (q_qfmt r) bf (q_query r) (Some b))) ->
  (forall ec qf bf q b, o_user r = UMsg ec qf bf q b ->
     P (mkExp (q_id r) ec qf bf (match q with [] => q_query r | _ => q end) (Some b))) ->
  P (spec_expect shed rt r).
Proof.
  intros E V M. unfold spec_expect.
  destruct (negb (q_version r =? 1)); [apply E|].
  destruct (negb (q_qfmt r =? 1) || negb (o_utf8 r)); [apply E|].
  destruct (router_get rt (q_query r)) as [[m h]|]; [|apply E].
  destruct shed; [apply E|].
  destruct (mw_refusal rt r) as [[c msg]|]; [apply E|].
  destruct (body_class h r); [|apply E..].
  destruct (o_user r); [now apply V|now apply M|apply E..].
Qed.

Lemma meets_id_query shed rt r p :
  resp_meets (spec_expect shed rt r) p = true -> p_id p = q_id r /\ query_rule r p.
Proof.
  intros M. apply resp_meets_fields in M as (-> & _ & _ & _ & Q & _). unfold query_rule. rewrite Q.
  pattern (spec_expect shed rt r). apply spec_expect_rows; [auto..|].
  intros ec qf bf [|y q] b U; [auto|]. split; [reflexivity|]. right. exists ec, qf, bf, (y :: q), b. now repeat split.
Qed.

Lemma path_step_silent off rt r :
  s_resp (path_step off rt r) = None ->
  is_notify r = true \/ off = false /\ panics r = true /\ exists m h, dispatched rt r = Some (m, h).
Proof.
  rewrite dispatched_eq. unfold path_step, dispatch_step, answer.
  destruct (is_notify r); [intros _; now left|].
  destruct (route rt r) as [c msg|m h]; [discriminate|].
  destruct (off && o_sat r); [discriminate|]. cbn [s_resp].
  destruct (canon_dispatch rt h r) eqn:E; [discriminate|]. apply canon_dispatch_none in E.
  destruct off; [discriminate|]. intros _. right. eauto.
Qed.

Lemma path_step_off off rt r :
  o_sat r = false -> (panics r = false \/ dispatched rt r = None) -> path_step off rt r = path_step false rt r.
Proof.
  rewrite dispatched_eq. unfold path_step, dispatch_step.
  destruct (route rt r) as [c msg|m h]; [reflexivity|]. intros -> [P|[=]]. rewrite andb_false_r. cbn [andb].
  destruct (canon_dispatch rt h r) eqn:E; [reflexivity|]. apply canon_dispatch_none in E. congruence.
Qed.

Lemma path_step_notify off rt r : is_notify r = true -> s_resp (path_step off rt r) = None.
Proof.
  intros N. unfold path_step, dispatch_step, answer. rewrite N.
  destruct (route rt r); [reflexivity|]. now destruct (off && o_sat r).
Qed.

(** inline, a panicking user function unwinds the connection, which [inline_step]
    renders as "no frame": a request must not reach one there *)
Lemma path_step_answer off rt r :
  (off = false -> panics r = false \/ dispatched rt r = None) ->
  if is_notify r then s_resp (path_step off rt r) = None
  else exists p, s_resp (path_step off rt r) = Some p /\ resp_meets (spec_expect (off && o_sat r) rt r) p = true.
Proof.
  intros H. destruct (is_notify r) eqn:N; [now apply path_step_notify|].
  destruct (s_resp (path_step off rt r)) as [p|] eqn:E.
  - exists p. split; [reflexivity|]. now apply path_step_meets.
  - apply path_step_silent in E as [N'|(O & P & m & h & D)]; [congruence|]. destruct (H O); congruence.
Qed.

Definition non_notify (r : request) : bool := negb (is_notify r).

Lemma run_resps_cons (step : router -> request -> stepres) (rt : router) r rs :
  run_resps step rt (r :: rs) =
  match s_resp (step rt r) with Some p => p :: run_resps step rt rs | None => run_resps step rt rs end.
Proof. unfold run_resps. cbn [map opt_list]. destruct (s_resp (step rt r)); reflexivity. Qed.

Lemma run_resps_Forall2 (step : router -> request -> stepres) (rt : router) (Q : request -> resp -> Prop) rs :
  (forall r, In r rs ->
     if is_notify r then s_resp (step rt r) = None else exists p, s_resp (step rt r) = Some p /\ Q r p) ->
  Forall2 Q (filter non_notify rs) (run_resps step rt rs).
Proof.
  induction rs as [|r rs IH]; intros H; [constructor|].
  rewrite run_resps_cons. cbn [filter]. unfold non_notify at 1.
  specialize (IH (fun r' Hin => H r' (or_intror Hin))). specialize (H r (or_introl eq_refl)).
  destruct (is_notify r); cbn [negb]; [now rewrite H|].
  destruct H as (p & -> & HQ). now constructor.
Qed.

Lemma run_resps_ext (step1 step2 : router -> request -> stepres) (rt : router) rs :
  (forall r, In r rs -> s_resp (step1 rt r) = s_resp (step2 rt r)) ->
  run_resps step1 rt rs = run_resps step2 rt rs.
Proof. intros H. unfold run_resps. f_equal. apply map_ext_in. exact H. Qed.

Lemma forall2b_meets {A} (X : A -> expect) l ps :
  Forall2 (fun a p => resp_meets (X a) p = true) l ps -> forall2b resp_meets (map X l) ps = true.
Proof. induction 1 as [|a p l ps M F IH]; cbn [map forall2b]; [reflexivity|]. now rewrite M, IH. Qed.

Lemma forall2b_match_all xs ps : forall2b resp_meets xs ps = true -> match_all xs ps = true.
Proof.
  revert ps; induction xs as [|x xs IH]; intros [|p ps] H; cbn [forall2b] in H; try discriminate; [reflexivity|].
  apply andb_true_iff in H as [H1 H2]. cbn [match_all take_id].
  rewrite (proj1 (resp_meets_fields _ _ H1)), N.eqb_refl, H1. now apply IH.
Qed.

Lemma ids_of_filter (P : request -> bool) l :
  NoDup (map q_id l) ->
  forall r, In r l -> memN (q_id r) (map q_id (filter P l)) = P r.
Proof.
  intros ND r Hin. destruct (P r) eqn:Pr.
  - apply memN_In, in_map, filter_In. now split.
  - destruct (memN (q_id r) (map q_id (filter P l))) eqn:M; [|reflexivity].
    apply memN_In, in_map_iff in M as (r' & E & Hin'). apply filter_In in Hin' as [Hin' Pr'].
    assert (r' = r) by (eapply nodup_map_inj; eauto). subst. congruence.
Qed.

Lemma run_tobs_counts (step : router -> request -> stepres) (rt : router) (shed : router -> request -> bool) rs :
  (forall r, s_inv (step rt r) = match spec_invoked (shed rt r) rt r with Some x => [x] | None => [] end /\
             s_mw (step rt r) = if spec_mw (shed rt r) rt r then 1%nat else O) ->
  t_counts (run_tobs step rt rs) = expected_counts shed rt rs /\ t_mw (run_tobs step rt rs) = expected_mw shed rt rs.
Proof.
  intros H. unfold run_tobs, expected_counts, expected_mw, run_invs, run_mws; cbn [t_counts t_mw]. split.
  - now rewrite (flat_map_ext _ _ (fun r => proj1 (H r))).
  - f_equal. induction rs as [|r rs IH]; cbn [fold_right filter length]; [reflexivity|].
    rewrite (proj2 (H r)), IH. now destruct (spec_mw (shed rt r) rt r).
Qed.

Lemma wf_req c r : c03_wf c = true -> In r (c_reqs c) -> req_wf c r = true.
Proof.
  unfold c03_wf. intros H Hin. apply andb_true_iff in H as [_ H].
  rewrite forallb_forall in H. now apply H.
Qed.

Lemma wf_nodup c : c03_wf c = true -> NoDup (map q_id (filter non_notify (c_reqs c))).
Proof. unfold c03_wf. intros H. apply andb_true_iff in H as [H _]. now apply nodupN_NoDup. Qed.

Lemma wf_inline c r :
  req_wf c r = true -> c_tcp c = true \/ c_async c = true ->
  o_sat r = false /\ (panics r = false \/ dispatched (c_rt c) r = None).
Proof.
  unfold req_wf. intros H T.
  assert (NT : negb (c_tcp c) && negb (c_async c) = false) by (destruct T as [-> | ->]; [reflexivity|apply andb_false_r]).
  apply andb_true_iff in H as [H1 H2]. rewrite NT, orb_false_r in H2. apply negb_true_iff in H2.
  split; [exact H2|]. destruct (panics r); [right|now left].
  destruct (dispatched (c_rt c) r) as [[m h]|]; [|reflexivity].
  cbn [negb orb] in H1. rewrite <- andb_assoc, NT, andb_false_r in H1. discriminate.
Qed.

Lemma wf_ws c r :
  req_wf c r = true -> spec_off (c_rt c) r = false -> panics r = false \/ dispatched (c_rt c) r = None.
Proof.
  unfold req_wf, spec_off. intros H O. apply andb_true_iff in H as [H _].
  destruct (dispatched (c_rt c) r) as [[m h]|]; [left|now right].
  rewrite O in H. now destruct (panics r).
Qed.

Lemma ok_inline_model c :
  c03_wf c = true -> c_tcp c = true \/ c_async c = true ->
  ok_inline (c_rt c) (c_reqs c) (run_tobs tcp_step (c_rt c) (c_reqs c)) = true.
Proof.
  intros W T. unfold ok_inline.
  destruct (run_tobs_counts tcp_step (c_rt c) no_shed (c_reqs c)) as [-> ->].
  { intros r. rewrite tcp_step_path. apply (path_step_counts false). }
  rewrite listN_eqb_refl, N.eqb_refl, !andb_true_r. cbn [run_tobs t_alive t_resps andb].
  apply (forall2b_meets (spec_expect false (c_rt c))), run_resps_Forall2. intros r Hin.
  rewrite tcp_step_path. apply (path_step_answer false). intros _.
  exact (proj2 (wf_inline c r (wf_req c r W Hin) T)).
Qed.

Lemma ok_ws_model c :
  c03_wf c = true -> ok_ws (c_rt c) (c_reqs c) (run_tobs ws_step (c_rt c) (c_reqs c)) = true.
Proof.
  intros W. unfold ok_ws.
  destruct (run_tobs_counts ws_step (c_rt c) shed_ws (c_reqs c)) as [-> ->].
  { intros r. rewrite ws_step_path. apply path_step_counts. }
  rewrite listN_eqb_refl, N.eqb_refl, !andb_true_r. cbn [run_tobs t_alive t_resps andb].
  change (filter (fun r => negb (is_notify r)) (c_reqs c)) with (filter non_notify (c_reqs c)).
  set (X := fun r => spec_expect (shed_ws (c_rt c) r) (c_rt c) r).
  set (P := fun r => negb (spec_off (c_rt c) r) || o_sat r).
  set (ids := map q_id (filter P (filter non_notify (c_reqs c)))).
  (* frame by frame: it meets its request's row, and since ids are distinct it is
     among the reader task's frames exactly when its request is among the reader's *)
  assert (F : Forall2 (fun r p => resp_meets (X r) p = true /\ P r = memN (p_id p) ids)
                      (filter non_notify (c_reqs c)) (run_resps ws_step (c_rt c) (c_reqs c))).
  { apply run_resps_Forall2. intros r Hin. rewrite ws_step_path.
    pose proof (path_step_answer (spec_off (c_rt c) r) (c_rt c) r (wf_ws c r (wf_req c r W Hin))) as A.
    destruct (is_notify r) eqn:N; [exact A|]. destruct A as (p & E & M). exists p. repeat split; [exact E|exact M|].
    rewrite (proj1 (meets_id_query _ _ _ _ M)). symmetry. apply ids_of_filter; [now apply wf_nodup|].
    apply filter_In. split; [exact Hin|]. unfold non_notify. now rewrite N. }
  rewrite (forall2b_match_all _ _ (forall2b_meets X _ _ (Forall2_weaken _ _ _ _ (fun _ _ => @proj1 _ _) F))).
  exact (forall2b_meets X _ _ (Forall2_filter _ P _ _ _ F)).
Qed.

Lemma ws_equals_tcp c :
  c03_wf c = true -> (c_tcp c = true \/ c_async c = true) ->
  run_resps ws_step (c_rt c) (c_reqs c) = run_resps tcp_step (c_rt c) (c_reqs c).
Proof.
  intros W T. apply run_resps_ext. intros r Hin.
  destruct (wf_inline c r (wf_req c r W Hin) T) as [S P].
  now rewrite ws_step_path, tcp_step_path, (path_step_off _ _ _ S P).
Qed.

Lemma ok_model_C03 c : c03_wf c = true -> ok_C03 c (model_C03 c) = true.
Proof.
  intros W. unfold ok_C03, model_C03, agree; cbn [b_tcp b_async b_ws].
  pose proof (ok_inline_model c W) as I. pose proof (ok_ws_model c W) as O. pose proof (ws_equals_tcp c W) as E.
  change async_step with tcp_step.
  destruct (c_tcp c), (c_async c), (c_ws c); cbn [ok_opt negb andb run_tobs t_resps];
    rewrite ?I, ?O, ?E, ?(forall2b_refl resp_eqb resp_eqb_refl), ?perm_eqb_refl; auto.
Qed.

(** the hypothesis under which the four paths are compared: nothing is shed *)
Lemma off_path_shed p r : (p = PWsOff -> o_sat r = false) -> off_path p && o_sat r = false.
Proof. destruct p; [reflexivity..|]. intros H. now rewrite H. Qed.

Lemma one_response p rt r :
  is_notify r = false -> (panics r = false \/ p = PWsOff) ->
  exists resp, s_resp (step_of p rt r) = Some resp /\ p_id resp = q_id r /\ query_rule r resp.
Proof.
  intros N H. rewrite step_of_path.
  pose proof (path_step_answer (off_path p) rt r) as A. rewrite N in A.
  destruct A as (q & E & M); [destruct H as [P| ->]; [now left|discriminate]|]. exists q. split; [exact E|]. exact (meets_id_query _ _ _ _ M).
Qed.

Lemma notify_silent p rt r : q_notify r = 1 -> s_resp (step_of p rt r) = None.
Proof. intros Hn. rewrite step_of_path. apply path_step_notify. unfold is_notify. now rewrite Hn. Qed.

Lemma one_response_each p rt rs :
  (forall r, In r rs -> panics r = false \/ p = PWsOff) ->
  Forall2 (fun r resp => p_id resp = q_id r /\ query_rule r resp)
          (filter non_notify rs) (run_resps (step_of p) rt rs).
Proof.
  intros H. apply run_resps_Forall2. intros r Hin. destruct (is_notify r) eqn:N.
  - apply notify_silent. now apply N.eqb_eq.
  - destruct (one_response p rt r N (H r Hin)) as (q & E & IQ). now exists q.
Qed.

Lemma step_meets p rt r resp :
  (p = PWsOff -> o_sat r = false) ->
  s_resp (step_of p rt r) = Some resp -> resp_meets (spec_expect false rt r) resp = true.
Proof.
  intros H E. rewrite step_of_path in E. apply path_step_meets in E. now rewrite off_path_shed in E.
Qed.

Lemma invoked_spec p rt r :
  (p = PWsOff -> o_sat r = false) ->
  s_inv (step_of p rt r) = match spec_invoked false rt r with Some x => [x] | None => [] end.
Proof.
  intros H. rewrite step_of_path, (proj1 (path_step_counts _ rt r)). now rewrite off_path_shed.
Qed.

(** the user function runs exactly once if the request is dispatched, let
    through by the middleware, and its body acceptable and decodable (for a
    registry mount: a call of a registered function), and not at all otherwise *)
Definition reaches_user (rt : router) (r : request) : Prop :=
  exists m h, dispatched rt r = Some (m, h) /\ mw_refusal rt r = None /\ body_class h r = BOk /\
              (h_kind h = KRegistry -> q_body r <> [] /\ bmem (reg_pointer m (q_query r)) (h_fns h) = true).

Lemma spec_invoked_reaches rt r :
  (exists rid, spec_invoked false rt r = Some rid) <-> reaches_user rt r.
Proof.
  unfold spec_invoked, reaches_user. split.
  - intros [rid H]. destruct (dispatched rt r) as [[m h]|]; [|discriminate].
    destruct (mw_refusal rt r); [discriminate|]. destruct (body_class h r) eqn:BC; try discriminate.
    exists m, h. do 3 (split; [easy|]). intros K. rewrite K, beqb_nil_r in H.
    destruct (q_body r); [discriminate|]. now destruct (bmem (reg_pointer m (q_query r)) (h_fns h)).
  - intros (m & h & -> & -> & -> & R). exists (h_rid h). destruct (h_kind h); try reflexivity.
    destruct (R eq_refl) as [B ->]. rewrite beqb_nil_r. now destruct (q_body r).
Qed.

Lemma invoked_once_iff p rt r :
  (p = PWsOff -> o_sat r = false) ->
  (s_inv (step_of p rt r) = [] \/ exists rid, s_inv (step_of p rt r) = [rid]) /\
  ((exists rid, s_inv (step_of p rt r) = [rid]) <-> reaches_user rt r).
Proof.
  intros H. rewrite (invoked_spec p rt r H), <- spec_invoked_reaches.
  destruct (spec_invoked false rt r) as [x|].
  - split; [right; eauto|]. split; eauto.
  - split; [now left|]. split; intros [? E]; discriminate.
Qed.

Lemma transports_agree rt r p1 p2 :
  panics r = false -> o_sat r = false ->
  s_resp (step_of p1 rt r) = s_resp (step_of p2 rt r) /\
  s_inv (step_of p1 rt r) = s_inv (step_of p2 rt r) /\
  s_mw (step_of p1 rt r) = s_mw (step_of p2 rt r).
Proof.
  intros P S. rewrite !step_of_path, (path_step_off (off_path p1)), (path_step_off (off_path p2)); auto.
Qed.

(** inline paths answer in arrival order: the list of frames is, element by
    element, what the decision table says of the non-notify requests *)
Lemma inline_order p rt rs :
  p <> PWsOff -> (forall r, In r rs -> panics r = false) ->
  Forall2 (fun r resp => resp_meets (spec_expect false rt r) resp = true)
          (filter non_notify rs) (run_resps (step_of p) rt rs).
Proof.
  intros Hp H. apply run_resps_Forall2. intros r Hin. rewrite step_of_path.
  pose proof (path_step_answer (off_path p) rt r (fun _ => or_introl (H r Hin))) as A.
  now rewrite off_path_shed in A.
Qed.

Lemma saturation_sheds rt r m h :
  dispatched rt r = Some (m, h) -> o_sat r = true ->
  s_resp (wso_step rt r) = (if is_notify r then None else Some (mkResp (q_id r) EC_EXHAUSTED 0 3 (q_query r) msg_saturated)) /\
  s_inv (wso_step rt r) = [] /\ s_mw (wso_step rt r) = O.
Proof.
  intros D S. apply dispatched_route in D. rewrite wso_step_path. unfold path_step, dispatch_step.
  rewrite D, S. repeat split.
Qed.

Lemma offreader_panic_contained rt r m h :
  dispatched rt r = Some (m, h) -> o_sat r = false -> mw_refusal rt r = None -> body_class h r = BOk ->
  o_user r = UPanic -> is_notify r = false ->
  s_resp (wso_step rt r) = Some (mkResp (q_id r) EC_INTERNAL 0 3 (q_query r) msg_panicked).
Proof.
  intros D S MW BC U N. apply dispatched_route in D. rewrite wso_step_path.
  unfold path_step, dispatch_step, answer, canon_dispatch, canon_body, fin_user. now rewrite D, S, MW, BC, U, N.
Qed.

Lemma meets_err_row r c p : resp_meets (expect_err r c) p = true -> p_ec p = c /\ p_qfmt p = 0.
Proof. intros M. apply resp_meets_fields in M as (_ & E & Q & _). exact (conj E Q). Qed.

(** the table read row by row *)
Lemma error_code_table p rt r resp :
  is_notify r = false -> (p = PWsOff -> o_sat r = false) -> s_resp (step_of p rt r) = Some resp ->
  (q_version r <> 1 -> p_ec resp = EC_VERSION /\ p_qfmt resp = 0) /\
  (q_version r = 1 -> q_qfmt r <> 1 \/ o_utf8 r = false -> p_ec resp = EC_QUERY /\ p_qfmt resp = 0) /\
  (q_version r = 1 -> q_qfmt r = 1 -> o_utf8 r = true -> router_get rt (q_query r) = None ->
     p_ec resp = EC_NOTFOUND /\ p_qfmt resp = 0) /\
  (forall m h, dispatched rt r = Some (m, h) ->
     (forall c msg, mw_refusal rt r = Some (c, msg) -> p_ec resp = c /\ p_qfmt resp = 0) /\
     (mw_refusal rt r = None ->
        (body_class h r = BBadFormat -> p_ec resp = EC_BODY /\ p_qfmt resp = 0) /\
        (body_class h r = BUndecodable -> p_ec resp = undecodable_code (h_kind h) /\ p_qfmt resp = 0) /\
        (body_class h r = BOk ->
           (forall c msg, o_user r = UErr c msg -> p_ec resp = c /\ p_qfmt resp = 0) /\
           (forall bf b, o_user r = UVal bf b ->
              p_ec resp = 0 /\ p_qfmt resp = q_qfmt r /\ p_bfmt resp = bf /\ p_body resp = b) /\
           (o_user r = UPanic -> p_ec resp = EC_INTERNAL)))).
Proof.
  intros _ H E. pose proof (step_meets p rt r resp H E) as M. unfold spec_expect in M.
  split; [|split; [|split]].
  - intros V. apply N.eqb_neq in V. rewrite V in M. exact (meets_err_row _ _ _ M).
  - intros V QU. apply N.eqb_eq in V. rewrite V in M.
    replace (negb (q_qfmt r =? 1) || negb (o_utf8 r)) with true in M; [exact (meets_err_row _ _ _ M)|].
    destruct QU as [Q| ->]; [apply N.eqb_neq in Q; now rewrite Q|now rewrite orb_true_r].
  - intros V Q U G. apply N.eqb_eq in V, Q. rewrite V, Q, U, G in M. exact (meets_err_row _ _ _ M).
  - intros m h D. apply dispatched_route in D. pose proof (route_cases rt r) as C. rewrite D in C.
    destruct C as (V & Q & U & G). rewrite V, Q, U, G in M. cbn [negb orb] in M. split.
    + intros c msg MW. rewrite MW in M. exact (meets_err_row _ _ _ M).
    + intros MW. rewrite MW in M.
      split; [|split]; intros BC; rewrite BC in M; [exact (meets_err_row _ _ _ M)..|].
      split; [|split].
      * intros c msg U'. rewrite U' in M. exact (meets_err_row _ _ _ M).
      * intros bf b U'. rewrite U' in M. apply resp_meets_fields in M as (_ & ? & ? & ? & _ & B). auto.
      * intros U'. rewrite U' in M. exact (proj1 (meets_err_row _ _ _ M)).
Qed.
