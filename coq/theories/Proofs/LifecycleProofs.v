(** Proofs about the connection lifecycle model (Model/Lifecycle.v).

    A run with a successful handshake is [head_part s ++ drop_evs s]: what the
    connection does while the guard is alive, then the guard's drop.  Each
    piece of a run is described once by the kinds of events it is made of
    ([hook_ev], [body_ev], [head_ev], [drop_ev], [mid_ev]); that a piece holds no event
    of some other kind is then a case split on the event.  For the oracle, the
    callbacks of a run and the registry view are computed piece by piece
    ([steps]) into the closed form [model_trace]. *)
From RepeV Require Import Model.Lifecycle Proofs.PeersProofs.

Lemma forallb_flat_map {A B} (P : B -> bool) (f : A -> list B) l :
  forallb P (flat_map f l) = forallb (fun x => forallb P (f x)) l.
Proof.
  induction l as [|x l IH]; cbn [flat_map forallb]; [reflexivity|].
  rewrite forallb_app, IH. reflexivity.
Qed.

Lemma forallb_map_const {A B} (P : B -> bool) (f : A -> B) l :
  (forall x, P (f x) = true) -> forallb P (map f l) = true.
Proof. intros H. induction l as [|x l IH]; cbn [map forallb]; [reflexivity|]. rewrite H, IH. reflexivity. Qed.

Lemma forallb_map_seq {B} (P : B -> bool) f a n :
  (forall i, (a <= i < a + n)%nat -> P (f i) = true) -> forallb P (map f (seq a n)) = true.
Proof.
  intros H. apply forallb_forall. intros x Hx. apply in_map_iff in Hx. destruct Hx as [i [E Hi]].
  subst x. apply H, in_seq, Hi.
Qed.

Lemma existsb_none {A} (P : A -> bool) l : (forall x, In x l -> P x = false) -> existsb P l = false.
Proof.
  intros H. destruct (existsb P l) eqn:E; [|reflexivity].
  apply existsb_exists in E. destruct E as [x [Hx Px]]. rewrite (H x Hx) in Px. discriminate Px.
Qed.

Lemma filter_existsb {A} (P : A -> bool) l : existsb P l = false -> filter P l = [].
Proof.
  induction l as [|h l IH]; intros H; [reflexivity|]. cbn [existsb] in H. apply orb_false_elim in H.
  destruct H as [H1 H2]. cbn [filter]. rewrite H1. exact (IH H2).
Qed.

Lemma after_not_in {A} (x : A) a : forall d pre post,
  ~ In x a -> a ++ d = pre ++ x :: post -> incl post d.
Proof.
  induction a as [|y a IH]; intros d pre post Hn E.
  - cbn [app] in E. subst d. intros e He. apply in_or_app. right. right. exact He.
  - destruct pre as [|z pre]; injection E as E1 E2.
    + destruct Hn. left. exact E1.
    + apply (IH d pre post); [intros H; apply Hn; right; exact H|exact E2].
Qed.

Lemma NoDup_app_l {A} (a b : list A) : NoDup (a ++ b) -> NoDup a.
Proof.
  induction b as [|x b IH]; intros H; [rewrite app_nil_r in H; exact H|]. exact (IH (NoDup_remove_1 _ _ _ H)).
Qed.

Lemma nodupN_NoDup l : nodupN l = true -> NoDup l.
Proof.
  induction l as [|x l IH]; intros H; [constructor|]. cbn [nodupN] in H. apply andb_prop in H. destruct H as [H1 H2].
  constructor; [apply memN_false, negb_true_iff; exact H1|exact (IH H2)].
Qed.

Definition exit_part (s : scenario) : list ev :=
  match panic_idx (script s) with Some i => [EExit (XHookPanic i)] | None => body s end.
Definition arrive_part (s : scenario) : list ev :=
  if is_PHooks (s_phase s) then [EArrive (s_cause s)] else [].
Definition pre_part (s : scenario) : list ev := arrive_part s ++ hookpart s ++ exit_part s.

Definition head_part (s : scenario) : list ev := EHandshake true :: EGuardBuilt :: pre_part s.

Lemma run_ok s : s_hs s = true -> run s = head_part s ++ drop_evs s.
Proof.
  intros H. unfold run, head_part, pre_part, arrive_part, exit_part. rewrite H.
  cbn [app]. rewrite <- !app_assoc. reflexivity.
Qed.

Lemma none_on_handshake_fail s : s_hs s = false -> run s = [EHandshake false].
Proof. intros H. unfold run. rewrite H. reflexivity. Qed.

(** [is_disc] and [is_cancel] are the model's [is_disc_ev] and [is_cancel_ev]
    (convertible), under the names the statements use *)
Definition is_disc (e : ev) : bool := match e with EDisconnect _ => true | _ => false end.
Definition is_disc_j (j : nat) (e : ev) : bool :=
  match e with EDisconnect j' => (j =? j')%nat | _ => false end.
Definition is_connect (e : ev) : bool := match e with EConnect _ => true | _ => false end.
Definition is_cancel (e : ev) : bool := match e with ECancel => true | _ => false end.
Definition is_remove (e : ev) : bool := match e with ERegRemove => true | _ => false end.

(** events that the guard's drop produces and nothing else does *)
Definition guard_side (e : ev) : bool := is_disc e || is_cancel e || is_remove e.

Definition hook_ev (e : ev) : bool :=
  match e with EConnect _ | ERegInsert | ERegAlias _ | EQueue (OHookNotify _ _) => true | _ => false end.

(** the body in phase [p] ending by cause [c]; the exit itself included *)
Definition body_ev (p : phase) (c : cause) (e : ev) : bool :=
  match e with
  | EReaderStart | ERequest _ | EQueue (OResponse _) | EQueue (OPush _)
  | EInlineStart | EInlineEnd | EArrive _ | EExit _ => true
  | EOffStart => is_POff p
  | EOffSeesCancel => is_POff p && token_cause c
  | _ => false
  end.

(** what follows [ECancel] in the drop *)
Definition drop_ev (e : ev) : bool :=
  match e with EOffSeesCancel | ERegRemove | EDisconnect _ => true | _ => false end.

(** [E : K e = true] for a kind [K], the goal [P e = b] for a predicate [P] that
    like [K] is a match on the event: by cases on [e] *)
Ltac ev_cases e E :=
  destruct e as [| | | | | |[]| | | | | | | | | |];
  first [discriminate E | reflexivity | cbn in E |- *; congruence].

Lemma pings_evs (P : ev -> bool) n :
  (forall id, P (ERequest id) = true) -> (forall id, P (EQueue (OResponse id)) = true) ->
  forallb P (pings n) = true.
Proof.
  intros H1 H2. unfold pings. rewrite forallb_flat_map. apply forallb_forall. intros x _.
  cbn [forallb]. rewrite H1, H2. reflexivity.
Qed.

Lemma hookpart_evs s e : In e (hookpart s) -> hook_ev e = true.
Proof.
  revert e. apply forallb_forall. unfold hookpart. rewrite forallb_flat_map.
  apply forallb_forall. intros [i h|] _; [|reflexivity].
  destruct h; try reflexivity. cbn [cstep_evs hact_evs forallb hook_ev andb]. apply forallb_map_const. reflexivity.
Qed.

Lemma body_evs s e : In e (body s) -> body_ev (s_phase s) (s_cause s) e = true.
Proof.
  revert e. apply forallb_forall. unfold body. rewrite forallb_app, andb_true_r.
  destruct (s_phase s); cbn [forallb]; rewrite ?forallb_app, ?pings_evs by reflexivity;
    cbn [forallb body_ev is_POff andb].
  - reflexivity.
  - destruct (s_cause s); reflexivity.
  - destruct (token_cause (s_cause s)) eqn:T; cbn [forallb body_ev is_POff andb]; rewrite ?T; reflexivity.
  - rewrite forallb_map_const by reflexivity. reflexivity.
  - destruct (token_cause (s_cause s)); [reflexivity|]. apply pings_evs; reflexivity.
Qed.

(** the phase a connection ends in: a panicking connect hook ends it among the hooks *)
Definition end_phase (s : scenario) : phase :=
  match panic_idx (script s) with Some _ => PHooks | None => s_phase s end.

Lemma exit_part_evs s e : In e (exit_part s) -> body_ev (end_phase s) (s_cause s) e = true.
Proof.
  unfold exit_part, end_phase. destruct (panic_idx (script s)); [|apply body_evs]. intros [E|[]]. subst e. reflexivity.
Qed.

Definition head_ev (p : phase) (c : cause) (e : ev) : bool :=
  match e with EHandshake _ | EGuardBuilt => true | _ => hook_ev e || body_ev p c e end.

Lemma head_part_evs s e : In e (head_part s) -> head_ev (end_phase s) (s_cause s) e = true.
Proof.
  intros [E|[E|H]]; try (subst e; reflexivity).
  apply in_app_or in H. destruct H as [H|H]; [|apply in_app_or in H; destruct H as [H|H]].
  - unfold arrive_part in H. destruct (is_PHooks (s_phase s)); [destruct H as [E|[]]; subst e; reflexivity|destruct H].
  - apply hookpart_evs in H. ev_cases e H.
  - apply exit_part_evs in H. ev_cases e H.
Qed.

Lemma head_no_guard_side s e : In e (head_part s) -> guard_side e = false.
Proof. intros H. apply head_part_evs in H. ev_cases e H. Qed.

Lemma disc_evs_seq n : forall k, disc_evs k n = map EDisconnect (seq k n).
Proof. induction n as [|n IH]; intros k; cbn [disc_evs seq map]; [|rewrite IH]; reflexivity. Qed.

Lemma drop_tl_evs s e : In e (tl (drop_evs s)) -> drop_ev e = true.
Proof.
  revert e. apply forallb_forall. unfold drop_evs. cbn [tl].
  rewrite !forallb_app, !disc_evs_seq, !forallb_map_const by reflexivity.
  destruct (off_pending s); destruct (s_reg s); reflexivity.
Qed.

Lemma drop_evs_In s e : In e (drop_evs s) ->
  is_connect e = false /\ is_offstart e = false /\ forall m, e <> EQueue m.
Proof.
  intros [E|H]; [subst e; repeat split; discriminate|]. apply drop_tl_evs in H.
  destruct e; try discriminate H; repeat split; discriminate.
Qed.

Lemma drop_disc_j s j : filter (is_disc_j j) (drop_evs s) = filter (is_disc_j j) (disc_evs 0 (ndisc s)).
Proof.
  unfold drop_evs, ndisc. rewrite !disc_evs_seq, seq_app, map_app. cbn [filter is_disc_j]. rewrite !filter_app.
  destruct (off_pending s); destruct (s_reg s); reflexivity.
Qed.

Lemma disc_j_seq j n :
  filter (is_disc_j j) (disc_evs 0 n) = if (j <? n)%nat then [EDisconnect j] else [].
Proof.
  rewrite disc_evs_seq. induction n as [|n IH]; [reflexivity|].
  rewrite seq_S, map_app, filter_app, IH. cbn [map filter is_disc_j Nat.add].
  destruct (Nat.eqb_spec j n) as [E|E].
  - subst j. rewrite Nat.ltb_irrefl, (proj2 (Nat.ltb_lt n (S n)) (Nat.lt_succ_diag_r n)). reflexivity.
  - replace (j <? S n)%nat with (j <? n)%nat; [apply app_nil_r|].
    destruct (Nat.ltb_spec j n); symmetry; [apply Nat.ltb_lt|apply Nat.ltb_ge]; lia.
Qed.

(** handshake ok: disconnect hook [j] runs exactly once if it is registered (and
    never otherwise), after every connect hook that ran — for every exit cause,
    phase and hook configuration *)
Lemma disconnect_once s j : s_hs s = true ->
  length (filter (is_disc_j j) (run s)) = (if (j <? ndisc s)%nat then 1%nat else 0%nat) /\
  (forall pre post, run s = pre ++ EDisconnect j :: post -> forall e, In e post -> is_connect e = false).
Proof.
  intros H. rewrite (run_ok s H). split.
  - rewrite filter_app, drop_disc_j, disc_j_seq, filter_existsb.
    + destruct (j <? ndisc s)%nat; reflexivity.
    + apply existsb_none. intros e He. apply head_no_guard_side in He. destruct e; try reflexivity. discriminate He.
  - intros pre post E e He. apply (drop_evs_In s).
    refine (after_not_in (EDisconnect j) (head_part s) _ pre post _ E e He).
    intros Hin. apply head_no_guard_side in Hin. discriminate Hin.
Qed.

(** ... and before it, every connect hook of the run (they are all in the part before the drop) *)
Lemma connects_before_drop s e : s_hs s = true -> In e (run s) -> is_connect e = true -> In e (head_part s).
Proof.
  intros H He C. rewrite (run_ok s H) in He. apply in_app_or in He. destruct He as [He|He]; [exact He|].
  apply drop_evs_In in He. destruct He as [D _]. congruence.
Qed.

(** the token is cancelled exactly once, after everything the connection did
    and before every disconnect hook *)
Lemma cancel_before_disconnect_hooks s : s_hs s = true ->
  exists pre post, run s = pre ++ ECancel :: post /\
    (forall e, In e pre -> guard_side e = false) /\
    (forall e, In e post -> is_cancel e = false /\ is_connect e = false) /\
    (forall j, (j < ndisc s)%nat -> In (EDisconnect j) post).
Proof.
  intros H. exists (head_part s), (tl (drop_evs s)). split; [exact (run_ok s H)|]. split; [exact (head_no_guard_side s)|]. split.
  - intros e He. apply drop_tl_evs in He. split; ev_cases e He.
  - intros j Hj. assert (I : In (EDisconnect j) (filter (is_disc_j j) (drop_evs s))).
    { rewrite drop_disc_j, disc_j_seq, (proj2 (Nat.ltb_lt _ _) Hj). left. reflexivity. }
    apply filter_In in I. destruct I as [[I|I] _]; [discriminate I|exact I].
Qed.

(** the events of a connection in phase [PIdle] or [POffReader] from the start
    of its reader to the moment its exit cause is raised ... *)
Definition mid_tail (s : scenario) : list ev :=
  EReaderStart :: pings (s_reqs s) ++ (if is_POff (s_phase s) then [ERequest (s_reqs s); EOffStart] else []).

(** ... and all its events up to that moment *)
Definition mid_prefix (s : scenario) : list ev := [EHandshake true; EGuardBuilt] ++ hookpart s ++ mid_tail s.

(** a connection being served: the reader with its answered requests and a parked handler *)
Definition mid_ev (e : ev) : bool :=
  match e with
  | EHandshake _ | EGuardBuilt | EReaderStart | ERequest _ | EQueue (OResponse _) | EOffStart => true
  | _ => false
  end.

Lemma mid_tail_evs s e : In e (mid_tail s) -> mid_ev e = true.
Proof.
  revert e. apply forallb_forall. unfold mid_tail. cbn [forallb mid_ev andb].
  rewrite forallb_app, pings_evs by reflexivity. destruct (is_POff (s_phase s)); reflexivity.
Qed.

Lemma mid_prefix_evs s e : In e (mid_prefix s) -> hook_ev e || mid_ev e = true.
Proof.
  unfold mid_prefix. cbn [app]. intros [E|[E|H]]; try (subst e; reflexivity).
  apply in_app_or in H. destruct H as [H|H]; [apply hookpart_evs in H|apply mid_tail_evs in H]; ev_cases e H.
Qed.

Lemma body_mid s : s_phase s = PIdle \/ s_phase s = POffReader ->
  body s = mid_tail s ++ EArrive (s_cause s) ::
           (if is_POff (s_phase s) && token_cause (s_cause s) then [EOffSeesCancel] else []) ++
           [EExit (XCause (s_cause s))].
Proof.
  unfold body, mid_tail. intros [E|E]; rewrite E; cbn [is_POff andb app].
  - rewrite app_nil_r, <- app_assoc. reflexivity.
  - rewrite <- !app_assoc. reflexivity.
Qed.

Lemma head_mid s : panic_idx (script s) = None -> s_phase s = PIdle \/ s_phase s = POffReader ->
  head_part s = mid_prefix s ++ EArrive (s_cause s) ::
                (if is_POff (s_phase s) && token_cause (s_cause s) then [EOffSeesCancel] else []) ++
                [EExit (XCause (s_cause s))].
Proof.
  intros N PH. unfold head_part, pre_part, arrive_part, exit_part, mid_prefix. rewrite N, (body_mid s PH).
  replace (is_PHooks (s_phase s)) with false by (destruct PH as [E|E]; rewrite E; reflexivity).
  cbn [app]. rewrite <- app_assoc. reflexivity.
Qed.

(** a parked off-reader handler observes the cancellation before any disconnect
    hook runs: from the reader when the cause cancels the token, else from the
    guard's drop *)
Lemma parked_handler_sees_cancel s : s_hs s = true ->
  s_phase s = POffReader -> panic_idx (script s) = None ->
  exists pre post, run s = pre ++ EOffSeesCancel :: post /\
    In EOffStart pre /\ (forall e, In e pre -> is_disc e = false).
Proof.
  intros H P N. rewrite (run_ok s H), (head_mid s N (or_intror P)), P. cbn [is_POff andb].
  assert (A : forall w, forallb (fun e => negb (is_disc e)) w = true ->
            In EOffStart (mid_prefix s ++ w) /\ forall e, In e (mid_prefix s ++ w) -> is_disc e = false).
  { intros w Hw. split.
    - apply in_or_app. left. unfold mid_prefix, mid_tail. rewrite P. do 2 (apply in_or_app; right). right.
      apply in_or_app. right. right. left. reflexivity.
    - intros e He. apply in_app_or in He. destruct He as [He|He].
      + apply mid_prefix_evs in He. ev_cases e He.
      + apply negb_true_iff. exact (proj1 (forallb_forall _ w) Hw e He). }
  destruct (token_cause (s_cause s)) eqn:T.
  - exists (mid_prefix s ++ [EArrive (s_cause s)]), (EExit (XCause (s_cause s)) :: drop_evs s).
    split; [rewrite <- !app_assoc; reflexivity|apply A; reflexivity].
  - exists (mid_prefix s ++ [EArrive (s_cause s); EExit (XCause (s_cause s)); ECancel]), (tl (tl (drop_evs s))).
    split; [|apply A; reflexivity].
    unfold drop_evs, off_pending. rewrite P, T, N, <- !app_assoc. reflexivity.
Qed.

Lemma outq_app a b : outq (a ++ b) = outq a ++ outq b.
Proof. apply flat_map_app. Qed.

Lemma in_outq l m : In m (outq l) -> In (EQueue m) l.
Proof.
  intros H. apply in_flat_map in H. destruct H as [e [He Hm]].
  destruct e; try (destruct Hm; fail). destruct Hm as [Hm|[]]. rewrite <- Hm. exact He.
Qed.

Lemma outq_nil l : (forall m, ~ In (EQueue m) l) -> outq l = [].
Proof.
  intros H. destruct (outq l) as [|m r] eqn:E; [reflexivity|]. destruct (H m).
  apply in_outq. rewrite E. left. reflexivity.
Qed.

Definition cstep_notifies (c : cstep) : list omsg :=
  match c with CHook i (ANotify k) => map (OHookNotify i) (nseq k) | _ => [] end.

(** the notifies queued by the connect hooks that ran, in hook order *)
Definition hook_notifies (s : scenario) : list omsg := flat_map cstep_notifies (upto_panic (script s)).

Definition is_hook_notify (m : omsg) : bool := match m with OHookNotify _ _ => true | _ => false end.

Lemma outq_cstep c : outq (cstep_evs c) = cstep_notifies c.
Proof.
  destruct c as [i h|]; [|reflexivity]. destruct h; try reflexivity.
  cbn [cstep_evs hact_evs cstep_notifies]. induction (nseq k) as [|q l IH]; [reflexivity|].
  cbn [map]. rewrite <- IH. reflexivity.
Qed.

Lemma outq_hookpart s : outq (hookpart s) = hook_notifies s.
Proof.
  unfold hookpart, hook_notifies. induction (upto_panic (script s)) as [|c l IH]; [reflexivity|].
  cbn [flat_map]. rewrite outq_app, outq_cstep, IH. reflexivity.
Qed.

Lemma outq_run s : s_hs s = true -> outq (run s) = hook_notifies s ++ outq (exit_part s).
Proof.
  intros H. rewrite (run_ok s H). change (head_part s) with ([EHandshake true; EGuardBuilt] ++ pre_part s).
  unfold pre_part. rewrite !outq_app, outq_hookpart, (outq_nil (drop_evs s)), app_nil_r.
  - unfold arrive_part. destruct (is_PHooks (s_phase s)); reflexivity.
  - intros m Hm. apply drop_evs_In in Hm. destruct Hm as [_ [_ Q]]. exact (Q m eq_refl).
Qed.

(** one FIFO: what the connection sends is the notifies queued by the connect
    hooks, in hook order, followed by everything else (responses, pushes) *)
Lemma hook_notifies_before_responses s : s_hs s = true ->
  exists rest, outq (run s) = hook_notifies s ++ rest /\
    (forall m, In m (hook_notifies s) -> is_hook_notify m = true) /\
    (forall m, In m rest -> is_hook_notify m = false).
Proof.
  intros H. exists (outq (exit_part s)). split; [exact (outq_run s H)|]. split.
  - intros m Hm. apply in_flat_map in Hm. destruct Hm as [c [_ Hm]].
    destruct c as [i h|]; [|destruct Hm]. destruct h; try destruct Hm.
    apply in_map_iff in Hm. destruct Hm as [q [E _]]. subst m. reflexivity.
  - intros m Hm. apply in_outq, exit_part_evs in Hm.
    destruct m; [discriminate Hm|reflexivity|reflexivity].
Qed.

(** the view [v] is the C18 specification state [st] as peer [id] sees it: whether it is
    present, and the keys that resolve to it *)
Definition agrees (id : N) (st : pspec) (v : rview) : Prop :=
  spec_inv st /\ memN id (s_present st) = rv_present v /\
  (forall k, sp_lookup st k = Some id <-> In k (rv_keys v)).

Lemma alias_keeps_present st id k : s_present (fst (sstep st (PAlias id k))) = s_present st.
Proof.
  cbn [sstep]. destruct (negb (memN id (s_present st))); [reflexivity|].
  destruct (sp_lookup st k) as [owner|]; [destruct (owner =? id)|]; reflexivity.
Qed.

Lemma alias_present v k : rv_present (rv_step v (ERegAlias k)) = rv_present v.
Proof.
  cbn [rv_step]. destruct (rv_present v) eqn:P; [|exact P].
  destruct (memN k (rv_keys v)); [exact P|reflexivity].
Qed.

Lemma alias_keys_step v k x : rv_present v = true ->
  In x (rv_keys (rv_step v (ERegAlias k))) <-> x = k \/ In x (rv_keys v).
Proof.
  intros P. cbn [rv_step]. rewrite P. destruct (memN k (rv_keys v)) eqn:M; cbn [rv_keys].
  - split; [right; assumption|]. intros [E|H]; [subst x; apply memN_In; exact M|exact H].
  - rewrite in_app_iff. cbn [In]. intuition congruence.
Qed.

Lemma reg_step_inv id st e : spec_inv st -> spec_inv (reg_step id st e).
Proof. intros I. destruct e; try exact I; apply spec_inv_step; exact I. Qed.

Lemma agrees_step id st v e : agrees id st v -> agrees id (reg_step id st e) (rv_step v e).
Proof.
  intros [I [P K]]. split; [apply reg_step_inv; exact I|].
  destruct e; try (split; [exact P|exact K]); cbn [reg_step].
  - (* insert *) split; [|exact K]. cbn [sstep fst s_present]. rewrite memN_insN, N.eqb_refl. reflexivity.
  - (* alias *) split; [rewrite alias_keeps_present, alias_present; exact P|].
    destruct (rv_present v) eqn:Pv.
    + intros k. rewrite (lookup_after_alias st id key k P), (alias_keys_step v key k Pv), <- (K k).
      destruct (N.eqb_spec key k) as [E|E]; [split; [left; symmetry; exact E|reflexivity]|].
      split; [right; assumption|intros [C|L]; [destruct E; symmetry; exact C|exact L]].
    + rewrite spec_alias_absent by exact P. cbn [rv_step fst]. rewrite Pv. exact K.
  - (* remove *) split; [cbn [sstep fst s_present]; rewrite memN_delN, N.eqb_refl; reflexivity|].
    intros k. rewrite (spec_remove_lookup st id k I). split; [|intros []].
    destruct (sp_lookup st k) as [owner|]; [|discriminate].
    destruct (N.eqb_spec owner id) as [E|E]; [discriminate|]. intros H. inversion H. congruence.
Qed.

Lemma agrees_after id tr : forall st v, agrees id st v -> agrees id (reg_after id st tr) (rv_after v tr).
Proof.
  induction tr as [|e tr IH]; intros st v A; [exact A|].
  unfold reg_after, rv_after. cbn [fold_left]. apply IH. apply agrees_step. exact A.
Qed.

Lemma registry_view_sound id tr st : spec_inv st -> memN id (s_present st) = false ->
  (forall k, sp_lookup st k <> Some id) ->
  memN id (s_present (reg_after id st tr)) = rv_present (rv_after rv0 tr) /\
  (forall k, sp_lookup (reg_after id st tr) k = Some id <-> In k (rv_keys (rv_after rv0 tr))).
Proof.
  intros I P K. apply (agrees_after id tr st rv0). split; [exact I|]. split; [exact P|].
  intros k. split; [intros H; exact (K k H)|intros []].
Qed.

(** under the view [v] the events [l] show the callbacks [h] and leave the view [v'] *)
Definition steps (v : rview) (l : list ev) (h : list hev) (v' : rview) : Prop :=
  proj v l = h /\ rv_after v l = v'.

Lemma proj_app : forall a v b, proj v (a ++ b) = proj v a ++ proj (rv_after v a) b.
Proof.
  induction a as [|e a IH]; intros v b; [reflexivity|].
  cbn [app proj]. unfold rv_after. cbn [fold_left]. fold (rv_after (rv_step v e) a).
  rewrite IH. destruct e; reflexivity.
Qed.

Lemma steps_app v a h1 v1 b h2 v2 : steps v a h1 v1 -> steps v1 b h2 v2 -> steps v (a ++ b) (h1 ++ h2) v2.
Proof.
  intros [A1 A2] [B1 B2]. split.
  - rewrite proj_app, A1, A2, B1. reflexivity.
  - unfold rv_after in *. rewrite fold_left_app, A2, B2. reflexivity.
Qed.

(** events that neither change the registry view nor are projected *)
Definition inert (e : ev) : bool :=
  match e with
  | EConnect _ | EDisconnect _ | ERegInsert | ERegAlias _ | ERegRemove | EOffSeesCancel => false
  | _ => true
  end.

Lemma steps_inert : forall l v, forallb inert l = true -> steps v l [] v.
Proof.
  induction l as [|e l IH]; intros v H; [split; reflexivity|].
  cbn [forallb] in H. apply andb_prop in H. destruct H as [H1 H2].
  unfold steps, rv_after. cbn [proj fold_left].
  destruct e; try discriminate H1; exact (IH v H2).
Qed.

Lemma steps_inert_app v a b h v' : forallb inert a = true -> steps v b h v' -> steps v (a ++ b) h v'.
Proof. intros A. exact (steps_app v a [] v b h v' (steps_inert a v A)). Qed.

Lemma mid_tail_inert s : forallb inert (mid_tail s) = true.
Proof. apply forallb_forall. intros e He. apply mid_tail_evs in He. ev_cases e He. Qed.

Lemma steps_body v s :
  steps v (body s) (if is_POff (s_phase s) && token_cause (s_cause s) then [HK] else []) v.
Proof.
  destruct (is_POff (s_phase s) && token_cause (s_cause s)) eqn:E.
  - rewrite body_mid, E by (right; destruct (s_phase s); try discriminate E; reflexivity).
    apply steps_inert_app; [apply mid_tail_inert|]. split; reflexivity.
  - apply steps_inert, forallb_forall. intros e He. apply body_evs in He. ev_cases e He.
Qed.

(** a hook is entered under the view [v]; only an alias hook touches the view *)
Lemma steps_hook v i h :
  steps v (cstep_evs (CHook i h)) [HC i (rv_present v)]
        (match h with AAlias k => rv_step v (ERegAlias k) | _ => v end).
Proof.
  destruct h; try (split; reflexivity).
  apply (steps_app v [EConnect i] [HC i (rv_present v)] v); [split; reflexivity|].
  apply steps_inert. apply forallb_map_const. reflexivity.
Qed.

Lemma steps_hooks : forall hs i v,
  steps v (flat_map cstep_evs (number i hs)) (map (fun i' => HC i' (rv_present v)) (seq i (length hs)))
        (rv_after v (map ERegAlias (alias_keys hs))).
Proof.
  induction hs as [|h r IH]; intros i v; [split; reflexivity|].
  pose proof (steps_app _ _ _ _ _ _ _ (steps_hook v i h) (IH (S i) _)) as S.
  destruct h; try exact S. rewrite alias_present in S. exact S.
Qed.

Lemma rv_aliases ks : forall v, rv_present v = true -> NoDup (rv_keys v ++ ks) ->
  rv_after v (map ERegAlias ks) = mkRv true (rv_keys v ++ ks).
Proof.
  induction ks as [|k ks IH]; intros v P ND.
  - rewrite app_nil_r. destruct v as [p l]. cbn [rv_present] in P. subst p. reflexivity.
  - unfold rv_after. cbn [map fold_left rv_step].
    rewrite P, (proj2 (memN_false k (rv_keys v)) (fun I => NoDup_remove_2 _ _ _ ND (in_or_app _ _ _ (or_introl I)))).
    (* [k :: ks] as [[k] ++ ks], so that the hypothesis applies to the view that has [k] *)
    rewrite (app_assoc (rv_keys v) [k] ks : rv_keys v ++ k :: ks = _) in ND |- *.
    exact (IH (mkRv true (rv_keys v ++ [k])) eq_refl ND).
Qed.

Lemma rv_aliases_absent ks v : rv_present v = false -> rv_after v (map ERegAlias ks) = v.
Proof.
  intros P. induction ks as [|k ks IH]; [reflexivity|].
  unfold rv_after in *. cbn [map fold_left rv_step]. rewrite P. exact IH.
Qed.

(** [upto_panic] on the hooks themselves: those that run, the panicking one last *)
Fixpoint cut (hs : list hact) : list hact :=
  match hs with [] => [] | APanic :: _ => [APanic] | h :: r => h :: cut r end.

Lemma upto_panic_number : forall hs i, upto_panic (number i hs) = number i (cut hs).
Proof.
  induction hs as [|h r IH]; intros i; [reflexivity|].
  destruct h; cbn [number upto_panic cut]; try rewrite IH; reflexivity.
Qed.

Lemma cut_nopanic hs : existsb is_panic hs = false -> cut hs = hs.
Proof.
  induction hs as [|h r IH]; intros H; [reflexivity|]. cbn [existsb] in H. apply orb_false_elim in H.
  destruct H as [H1 H2]. destruct h; try discriminate H1; cbn [cut]; rewrite (IH H2); reflexivity.
Qed.

Lemma cut_app a b : cut (a ++ b) = if existsb is_panic a then cut a else a ++ cut b.
Proof.
  induction a as [|h a IH]; [reflexivity|].
  destruct h; cbn [app cut existsb is_panic orb]; try rewrite IH; try reflexivity;
    destruct (existsb is_panic a); reflexivity.
Qed.

Lemma existsb_cut hs : existsb is_panic (cut hs) = existsb is_panic hs.
Proof. induction hs as [|h r IH]; [reflexivity|]. destruct h; cbn [cut existsb is_panic orb]; try exact IH. reflexivity. Qed.

Lemma cut_prefix hs : exists r, hs = cut hs ++ r.
Proof.
  induction hs as [|h t IH]; [exists []; reflexivity|]. destruct IH as [r IH].
  destruct h; cbn [cut]; try (exists r; cbn [app]; rewrite <- IH; reflexivity).
  exists t. reflexivity.
Qed.

Lemma cut_length hs : (length (cut hs) <= length hs)%nat.
Proof. destruct (cut_prefix hs) as [r E]. rewrite E at 2. rewrite app_length. apply Nat.le_add_r. Qed.

Lemma firstn_cut hs : firstn (length (cut hs)) hs = cut hs.
Proof. destruct (cut_prefix hs) as [r E]. rewrite E at 2. apply firstn_app_exact. Qed.

Definition is_panic_step (c : cstep) : bool := match c with CHook _ APanic => true | _ => false end.

Lemma upto_panic_app a b :
  upto_panic (a ++ b) = if existsb is_panic_step a then upto_panic a else a ++ upto_panic b.
Proof.
  induction a as [|c a IH]; [reflexivity|]. cbn [app].
  destruct c as [i h|]; [destruct h|]; cbn [upto_panic existsb is_panic_step orb]; try rewrite IH;
    try (destruct (existsb is_panic_step a); reflexivity); try reflexivity.
Qed.

Lemma panic_number hs : forall i, existsb is_panic_step (number i hs) = existsb is_panic hs.
Proof. induction hs as [|h r IH]; intros i; [reflexivity|]. cbn [number existsb]. rewrite IH. destruct h; reflexivity. Qed.

Lemma panic_idx_some l : match panic_idx l with Some _ => true | None => false end = existsb is_panic_step l.
Proof.
  induction l as [|c l IH]; [reflexivity|].
  destruct c as [i h|]; [destruct h|]; cbn [panic_idx existsb is_panic_step orb]; try exact IH. reflexivity.
Qed.

(** The connect hooks that ran are [ran_pre s ++ ran_rest s = cut (oh s)], [nran s]
    of them: those registered before the registry, and, unless one of these
    panicked ([pre_panics]), the registry's insert hook ([regran], if attached)
    and those registered after it.  [nran s] is what the oracle's local [nran]
    evaluates to on the model's trace ([hc_model]). *)
Definition pre_panics (s : scenario) : bool := existsb is_panic (s_pre s).
Definition ran_pre (s : scenario) : list hact := cut (s_pre s).
Definition ran_rest (s : scenario) : list hact := if pre_panics s then [] else cut (s_post s ++ eff_xh s).
Definition regran (s : scenario) : bool := s_reg s && negb (pre_panics s).
Definition nran (s : scenario) : nat := length (cut (oh s)).
Definition panics (s : scenario) : bool := match panic_idx (script s) with Some _ => true | None => false end.

Lemma ran_cut s : ran_pre s ++ ran_rest s = cut (oh s).
Proof.
  unfold oh, ran_pre, ran_rest, pre_panics. rewrite (cut_app (s_pre s)).
  destruct (existsb is_panic (s_pre s)) eqn:E; [apply app_nil_r|]. rewrite (cut_nopanic _ E). reflexivity.
Qed.

Lemma firstn_oh s : firstn (nran s) (oh s) = ran_pre s ++ ran_rest s.
Proof. rewrite ran_cut. apply firstn_cut. Qed.

Lemma panics_oh s : panics s = existsb is_panic (oh s).
Proof.
  unfold panics, oh, script. rewrite panic_idx_some, !existsb_app, !panic_number, <- existsb_app.
  destruct (s_reg s); reflexivity.
Qed.

Lemma panics_ran s : panics s = existsb is_panic (ran_pre s ++ ran_rest s).
Proof. rewrite ran_cut, existsb_cut. apply panics_oh. Qed.

Lemma script_ran s :
  upto_panic (script s) =
  number 0 (ran_pre s) ++ (if regran s then [CReg] else []) ++ number (length (ran_pre s)) (ran_rest s).
Proof.
  unfold script, ran_pre, ran_rest, regran, pre_panics. rewrite upto_panic_app, panic_number, upto_panic_number.
  destruct (existsb is_panic (s_pre s)) eqn:E.
  - rewrite andb_false_r. cbn [negb number app]. rewrite app_nil_r. reflexivity.
  - rewrite (cut_nopanic _ E), andb_true_r. cbn [negb]. f_equal.
    destruct (s_reg s); cbn [app upto_panic]; rewrite upto_panic_number; reflexivity.
Qed.

Lemma ran_cases s :
  (pre_panics s = true /\ ran_rest s = [] /\ regran s = false) \/
  (pre_panics s = false /\ ran_pre s = s_pre s /\ regran s = s_reg s).
Proof.
  unfold ran_rest, regran, ran_pre. destruct (pre_panics s) eqn:E.
  - left. rewrite andb_false_r. repeat split.
  - right. unfold pre_panics in E. rewrite (cut_nopanic _ E), andb_true_r. repeat split.
Qed.

Lemma wf_parts s : c15_wf s = true ->
  existsb is_alias (s_pre s) = false /\
  nodupN (alias_keys (s_post s ++ s_xh s)) = true /\
  (if is_PHooks (s_phase s) then token_cause (s_cause s) = true /\ s_reqs s = 0 else 1 <= s_reqs s).
Proof.
  (* conjuncts 1 (no alias before the registry), 3 (alias keys distinct) and 7 (requests per
     phase) of [c15_wf] *)
  unfold c15_wf.
  intros [[[[[[[[H1 _]%andb_prop H3]%andb_prop _]%andb_prop _]%andb_prop _]%andb_prop H7]%andb_prop _]%andb_prop _]%andb_prop.
  split; [apply negb_true_iff; exact H1|]. split; [exact H3|].
  destruct (is_PHooks (s_phase s)); apply andb_prop in H7; destruct H7 as [A B].
  - split; [exact A|apply N.eqb_eq; exact B].
  - apply N.leb_le. exact A.
Qed.

(** the view after the connect hooks *)
Definition vh (s : scenario) : rview := mkRv (regran s) (if regran s then alias_keys (ran_rest s) else []).

Lemma eff_xh_prefix s : exists r, s_xh s = eff_xh s ++ r.
Proof.
  unfold eff_xh. destruct (s_ctx s); [exists []; symmetry; apply app_nil_r|exists (s_xh s); reflexivity].
Qed.

Lemma nodup_ran_rest s : c15_wf s = true -> NoDup (alias_keys (ran_rest s)).
Proof.
  intros W. destruct (wf_parts s W) as [_ [ND _]]. unfold ran_rest. destruct (pre_panics s); [constructor|].
  destruct (eff_xh_prefix s) as [r1 E1]. destruct (cut_prefix (s_post s ++ eff_xh s)) as [r2 E2].
  rewrite E1, app_assoc, E2 in ND. unfold alias_keys in ND. rewrite <- app_assoc, flat_map_app in ND.
  exact (NoDup_app_l _ _ (nodupN_NoDup _ ND)).
Qed.

Lemma steps_hookpart s : c15_wf s = true ->
  steps rv0 (hookpart s)
    (map (fun i => HC i false) (seq 0 (length (ran_pre s))) ++
     map (fun i => HC i (regran s)) (seq (length (ran_pre s)) (length (ran_rest s))))
    (vh s).
Proof.
  intros W. unfold hookpart. rewrite script_ran, !flat_map_app.
  pose proof (steps_hooks (ran_pre s) 0 rv0) as A. rewrite rv_aliases_absent in A by reflexivity.
  apply (steps_app _ _ _ _ _ _ _ A). unfold vh. destruct (regran s).
  - apply (steps_app rv0 _ [] (mkRv true [])); [split; reflexivity|].
    pose proof (steps_hooks (ran_rest s) (length (ran_pre s)) (mkRv true [])) as B.
    rewrite (rv_aliases _ (mkRv true []) eq_refl (nodup_ran_rest s W)) in B. exact B.
  - pose proof (steps_hooks (ran_rest s) (length (ran_pre s)) rv0) as B.
    rewrite rv_aliases_absent in B by reflexivity. exact B.
Qed.

Lemma steps_exit_part v s :
  steps v (exit_part s)
        (if negb (panics s) && (is_POff (s_phase s) && token_cause (s_cause s)) then [HK] else []) v.
Proof.
  unfold exit_part, panics. destruct (panic_idx (script s)); [split; reflexivity|]. apply steps_body.
Qed.

Lemma steps_disc v n : forall k,
  steps v (disc_evs k n) (map (fun j => HD j (rv_present v) (N.of_nat (length (rv_keys v)))) (seq k n)) v.
Proof.
  induction n as [|n IH]; intros k; [split; reflexivity|].
  exact (steps_app v [EDisconnect k] [_] v _ _ v (conj eq_refl eq_refl) (IH (S k))).
Qed.

(** [v = rv0] without a registry: the view after the drop is empty either way *)
Lemma steps_drop v s : (s_reg s = false -> v = rv0) ->
  steps v (drop_evs s)
    ((if off_pending s then [HK] else []) ++
     map (fun j => HD j (rv_present v) (N.of_nat (length (rv_keys v)))) (seq 0 (s_dpre s)) ++
     map (fun j => HD j false 0) (seq (s_dpre s) (s_dpost s)))
    rv0.
Proof.
  intros R. unfold drop_evs. apply (steps_inert_app v [ECancel]); [reflexivity|].
  apply (steps_app v _ _ v); [destruct (off_pending s); split; reflexivity|].
  apply (steps_app v _ _ v); [apply steps_disc|].
  apply (steps_app v _ [] rv0); [|apply (steps_disc rv0)].
  destruct (s_reg s); [split; reflexivity|]. rewrite (R eq_refl). split; reflexivity.
Qed.

(** a parked handler sees the cancellation once: from the reader or from the drop *)
Definition hk (s : scenario) : list hev := if is_POff (s_phase s) && negb (panics s) then [HK] else [].

Lemma hk_split s :
  (if negb (panics s) && (is_POff (s_phase s) && token_cause (s_cause s)) then [HK] else []) ++
  (if off_pending s then [HK] else []) = hk s.
Proof.
  unfold hk, off_pending, panics. destruct (panic_idx (script s)); destruct (is_POff (s_phase s));
    destruct (token_cause (s_cause s)); reflexivity.
Qed.

(** the alias keys resolving to the peer when the first disconnect hook runs *)
Definition akn (s : scenario) : N := N.of_nat (length (rv_keys (vh s))).

(** the callbacks of a run in closed form: the connect hooks that ran, absent
    before the registry's insert hook; the parked handler; the disconnect
    hooks, absent after the registry's remove hook *)
Definition model_trace (s : scenario) : list hev :=
  (map (fun i => HC i false) (seq 0 (length (ran_pre s))) ++
   map (fun i => HC i (regran s)) (seq (length (ran_pre s)) (length (ran_rest s)))) ++
  hk s ++
  map (fun j => HD j (regran s) (akn s)) (seq 0 (s_dpre s)) ++
  map (fun j => HD j false 0) (seq (s_dpre s) (s_dpost s)).

Lemma steps_run s : c15_wf s = true -> s_hs s = true -> steps rv0 (run s) (model_trace s) rv0.
Proof.
  intros W H. rewrite (run_ok s H).
  apply (steps_inert_app rv0 [EHandshake true; EGuardBuilt] (pre_part s ++ drop_evs s)); [reflexivity|].
  unfold pre_part. rewrite <- !app_assoc.
  apply steps_inert_app; [unfold arrive_part; destruct (is_PHooks (s_phase s)); reflexivity|].
  apply (steps_app _ _ _ _ _ _ _ (steps_hookpart s W)). rewrite <- hk_split, <- app_assoc.
  apply (steps_app _ _ _ _ _ _ _ (steps_exit_part (vh s) s)). apply steps_drop.
  unfold vh, regran. intros R. rewrite R. reflexivity.
Qed.

Lemma hc_map_HC p l : hc_indices (map (fun i => HC i p) l) = l.
Proof. induction l as [|x l IH]; [reflexivity|]. cbn [map hc_indices flat_map app]. f_equal. exact IH. Qed.
Lemma hc_map_HD p a l : hc_indices (map (fun j => HD j p a) l) = [].
Proof. induction l as [|x l IH]; [reflexivity|exact IH]. Qed.
Lemma hd_map_HC p l : hd_indices (map (fun i => HC i p) l) = [].
Proof. induction l as [|x l IH]; [reflexivity|exact IH]. Qed.
Lemma hd_map_HD p a l : hd_indices (map (fun j => HD j p a) l) = l.
Proof. induction l as [|x l IH]; [reflexivity|]. cbn [map hd_indices flat_map app]. f_equal. exact IH. Qed.
Lemma hc_app a b : hc_indices (a ++ b) = hc_indices a ++ hc_indices b.
Proof. apply flat_map_app. Qed.
Lemma hd_app a b : hd_indices (a ++ b) = hd_indices a ++ hd_indices b.
Proof. apply flat_map_app. Qed.
Lemma hk_indices s : hc_indices (hk s) = [] /\ hd_indices (hk s) = [].
Proof. unfold hk. destruct (is_POff (s_phase s) && negb (panics s)); split; reflexivity. Qed.

Lemma hc_model s : hc_indices (model_trace s) = seq 0 (nran s).
Proof.
  unfold model_trace. rewrite !hc_app, !hc_map_HC, !hc_map_HD, (proj1 (hk_indices s)), !app_nil_r, <- seq_app, <- app_length, ran_cut. reflexivity.
Qed.

Lemma hd_model s : hd_indices (model_trace s) = seq 0 (ndisc s).
Proof.
  unfold model_trace, ndisc. rewrite !hd_app, !hd_map_HC, !hd_map_HD, (proj2 (hk_indices s)), seq_app. reflexivity.
Qed.

Lemma order_ok_skip a b : forallb (fun e => negb (is_hd e)) a = true -> order_ok (a ++ b) = order_ok b.
Proof.
  induction a as [|e a IH]; intros H; [reflexivity|]. cbn [forallb] in H. apply andb_prop in H. destruct H as [H1 H2].
  destruct e; try discriminate H1; exact (IH H2).
Qed.

Lemma order_ok_all_hd l : forallb is_hd l = true -> order_ok l = true.
Proof.
  destruct l as [|e l]; intros H; [reflexivity|]. cbn [forallb] in H. apply andb_prop in H. destruct H as [H1 H2].
  destruct e; try discriminate H1. exact H2.
Qed.

Lemma order_model s : order_ok (model_trace s) = true.
Proof.
  unfold model_trace.
  rewrite order_ok_skip by (rewrite forallb_app, !forallb_map_const by reflexivity; reflexivity).
  rewrite order_ok_skip by (unfold hk; destruct (is_POff (s_phase s) && negb (panics s)); reflexivity).
  apply order_ok_all_hd. rewrite forallb_app, !forallb_map_const by reflexivity. reflexivity.
Qed.

Lemma length_alias_keys l : length (alias_keys l) = length (filter is_alias l).
Proof.
  induction l as [|h l IH]; [reflexivity|]. destruct h; cbn [alias_keys flat_map app filter is_alias length]; rewrite <- IH; reflexivity.
Qed.

Lemma inserted_regran s : inserted s (nran s) = regran s.
Proof.
  unfold inserted, regran, nran. rewrite <- ran_cut, app_length. fold (pre_panics s).
  destruct (ran_cases s) as [[E1 _]|[E1 [E2 _]]]; rewrite E1; [rewrite !andb_false_r; reflexivity|].
  rewrite E2, (proj2 (Nat.leb_le _ _) (Nat.le_add_r _ _)), !andb_true_r. reflexivity.
Qed.

Lemma akn_spec s : c15_wf s = true -> akn s = if regran s then nalias (firstn (nran s) (oh s)) else 0.
Proof.
  intros W. destruct (wf_parts s W) as [NA _]. unfold akn, vh, nalias. destruct (regran s) eqn:R; [|reflexivity].
  cbn [rv_keys]. rewrite firstn_oh, filter_app, app_length, length_alias_keys.
  destruct (ran_cases s) as [[_ [_ E]]|[_ [E _]]]; [congruence|].
  rewrite E, (filter_existsb _ _ NA). reflexivity.
Qed.

Lemma samples_model s : c15_wf s = true -> forallb (sample_ok s (nran s)) (model_trace s) = true.
Proof.
  intros W. unfold model_trace. rewrite !forallb_app. repeat (apply andb_true_intro; split).
  - apply forallb_map_seq. intros i Hi. cbn [sample_ok].
    rewrite (proj2 (Nat.leb_gt _ _) (Nat.lt_le_trans _ _ _ (proj2 Hi) (cut_length (s_pre s)))), andb_false_r. reflexivity.
  - destruct (ran_cases s) as [[_ [E _]]|[_ [E1 E2]]]; [rewrite E; reflexivity|]. rewrite E1, E2.
    apply forallb_map_seq. intros i Hi. cbn [sample_ok]. rewrite (proj2 (Nat.leb_le _ _) (proj1 Hi)), andb_true_r.
    apply Bool.eqb_reflx.
  - unfold hk. destruct (is_POff (s_phase s) && negb (panics s)); reflexivity.
  - apply forallb_map_seq. intros j Hj. cbn [sample_ok].
    rewrite inserted_regran, (proj2 (Nat.ltb_lt j (s_dpre s)) (proj2 Hj)), andb_true_r, Bool.eqb_reflx, (akn_spec s W).
    apply N.eqb_refl.
  - apply forallb_map_seq. intros j Hj. cbn [sample_ok].
    rewrite (proj2 (Nat.ltb_ge _ _) (proj1 Hj)), andb_false_r. reflexivity.
Qed.

Definition is_WN (f : wframe) : bool := match f with WN _ _ => true | _ => false end.

Lemma expected_all_WN : forall hs i, forallb is_WN (expected_notifies i hs) = true.
Proof.
  induction hs as [|h r IH]; intros i; [reflexivity|]. cbn [expected_notifies]. rewrite forallb_app, IH, andb_true_r.
  destruct h; try reflexivity. apply forallb_map_const. reflexivity.
Qed.

Lemma expected_app : forall a i b,
  expected_notifies i (a ++ b) = expected_notifies i a ++ expected_notifies (i + length a) b.
Proof.
  induction a as [|h a IH]; intros i b; [cbn [app length expected_notifies]; rewrite Nat.add_0_r; reflexivity|].
  cbn [app expected_notifies length]. rewrite IH, <- app_assoc, Nat.add_succ_r. reflexivity.
Qed.

Lemma wire_of_number : forall hs i, map wframe_of (flat_map cstep_notifies (number i hs)) = expected_notifies i hs.
Proof.
  induction hs as [|h r IH]; intros i; [reflexivity|]. cbn [number flat_map expected_notifies].
  rewrite map_app, IH. f_equal. destruct h; try reflexivity. cbn [cstep_notifies]. rewrite map_map. reflexivity.
Qed.

Lemma wire_hook_notifies s : map wframe_of (hook_notifies s) = expected_notifies 0 (ran_pre s ++ ran_rest s).
Proof.
  unfold hook_notifies. rewrite script_ran, !flat_map_app, !map_app, !wire_of_number, expected_app.
  replace (flat_map cstep_notifies (if regran s then [CReg] else [])) with (@nil omsg) by (destruct (regran s); reflexivity).
  reflexivity.
Qed.

Lemma wire_ok_app exp r : forallb is_WN exp = true ->
  wire_ok exp (upto_resp (exp ++ r)) = wire_ok [] (upto_resp r).
Proof.
  induction exp as [|f l IH]; intros H; [reflexivity|]. cbn [forallb] in H. apply andb_prop in H. destruct H as [H1 H2].
  destruct f; try discriminate H1. cbn [app upto_resp wire_ok wframe_eqb]. rewrite Nat.eqb_refl, N.eqb_refl. exact (IH H2).
Qed.

Lemma pings_first n : 1 <= n -> exists r, pings n = ERequest 0 :: EQueue (OResponse 0) :: r.
Proof.
  intros H. unfold pings, nseq. destruct (N.to_nat n) as [|m] eqn:E; [|eexists; reflexivity].
  rewrite <- (N2Nat.id n), E in H. destruct H. reflexivity.
Qed.

Lemma wire_model s : c15_wf s = true -> s_hs s = true ->
  wire_ok (expected_notifies 0 (firstn (nran s) (oh s))) (upto_resp (map wframe_of (outq (run s)))) = true.
Proof.
  intros W H. destruct (wf_parts s W) as [_ [_ PH]].
  rewrite (outq_run s H), map_app, wire_hook_notifies, firstn_oh.
  rewrite wire_ok_app by apply expected_all_WN.
  unfold exit_part. destruct (panic_idx (script s)); [reflexivity|]. unfold body.
  destruct (is_PHooks (s_phase s)) eqn:P.
  - destruct PH as [T _]. rewrite T. destruct (s_phase s); try discriminate P. reflexivity.
  - (* the first message of the body answers request 0 *)
    destruct (pings_first _ PH) as [r E]. rewrite E. destruct (s_phase s); try discriminate P; reflexivity.
Qed.

Lemma offstart_run s : s_hs s = true -> In EOffStart (run s) ->
  s_phase s = POffReader /\ panic_idx (script s) = None.
Proof.
  intros H I. rewrite (run_ok s H) in I. apply in_app_or in I. destruct I as [I|I].
  - apply head_part_evs in I. unfold end_phase in I. destruct (panic_idx (script s)); [discriminate I|].
    destruct (s_phase s); try discriminate I. split; reflexivity.
  - apply drop_evs_In in I. destruct I as [_ [D _]]. discriminate D.
Qed.

(** whenever a handler was parked, whatever the configuration *)
Lemma offstart_sees_cancel s : s_hs s = true -> In EOffStart (run s) ->
  exists pre post, run s = pre ++ EOffSeesCancel :: post /\
    In EOffStart pre /\ (forall e, In e pre -> is_disc e = false).
Proof. intros H I. destruct (offstart_run s H I) as [P N]. exact (parked_handler_sees_cancel s H P N). Qed.

Lemma seen_model s : s_hs s = true -> match o_seen (model_C15 s) with Some false => false | _ => true end = true.
Proof.
  intros H. unfold model_C15, observe_run. cbn [o_seen].
  destruct (existsb is_offstart (run s)) eqn:E; [|reflexivity].
  apply existsb_exists in E. destruct E as [e [He E]]. destruct e; try discriminate E.
  destruct (offstart_sees_cancel s H He) as [pre [post [R _]]].
  replace (existsb is_offsees (run s)) with true; [reflexivity|]. symmetry. apply existsb_exists.
  exists EOffSeesCancel. split; [rewrite R; apply in_elt|reflexivity].
Qed.

Lemma nat_list_eqb_refl l : nat_list_eqb l l = true.
Proof. apply list_eqb_refl. apply Nat.eqb_refl. Qed.

Lemma ok_model_C15 s : c15_wf s = true -> ok_C15 s (model_C15 s) = true.
Proof.
  intros W. unfold ok_C15. destruct (s_hs s) eqn:H.
  - pose proof (seen_model s H) as S. pose proof (wire_model s W H) as Wi.
    unfold model_C15, observe_run in *. cbn [o_trace o_after o_wire o_seen fst snd] in *.
    destruct (steps_run s W H) as [T V]. rewrite T, V.
    rewrite hc_model, seq_length, hd_model, !nat_list_eqb_refl, order_model, (samples_model s W).
    rewrite (proj2 (Nat.leb_le _ _) (cut_length (oh s)) : (nran s <=? _)%nat = true), Wi, S. reflexivity.
  - unfold model_C15. rewrite (none_on_handshake_fail s H). reflexivity.
Qed.

(** the registry samples taken inside the callbacks and after the connection:
    present exactly from the insert hook to the remove hook, aliases too *)
Lemma registry_window s : c15_wf s = true -> s_hs s = true ->
  forallb (sample_ok s (length (hc_indices (o_trace (model_C15 s))))) (o_trace (model_C15 s)) = true /\
  o_after (model_C15 s) = (false, 0).
Proof.
  intros W H. unfold model_C15, observe_run. cbn [o_trace o_after].
  destruct (steps_run s W H) as [T V]. rewrite T, V, hc_model, seq_length. split; [exact (samples_model s W)|reflexivity].
Qed.

Lemma sibling_independent s b :
  run (set_sibling b s) = run s /\ model_C15 (set_sibling b s) = model_C15 s /\ model_mid (set_sibling b s) = model_mid s.
Proof.
  assert (R : run (set_sibling b s) = run s) by reflexivity.
  unfold model_C15, model_mid. rewrite R. repeat split.
Qed.

Lemma stag_parts s : c15_stag_wf s = true ->
  c15_wf s = true /\ s_hs s = true /\ panic_idx (script s) = None /\ nran s = length (oh s) /\
  (s_phase s = PIdle \/ s_phase s = POffReader).
Proof.
  unfold c15_stag_wf. intros [[[H1 H2]%andb_prop H3]%andb_prop H4]%andb_prop.
  assert (NP : existsb is_panic (oh s) = false).
  { apply negb_true_iff in H3. destruct (eff_xh_prefix s) as [r E].
    rewrite E, !app_assoc, existsb_app in H3. unfold oh. rewrite app_assoc. exact (proj1 (orb_false_elim _ _ H3)). }
  split; [exact H1|]. split; [exact H2|]. split; [|split].
  - rewrite <- panics_oh in NP. unfold panics in NP. destruct (panic_idx (script s)); [discriminate NP|reflexivity].
  - unfold nran. rewrite (cut_nopanic _ NP). reflexivity.
  - destruct (s_phase s); try discriminate H4; [left|right]; reflexivity.
Qed.

Lemma before_arrive_app a b :
  forallb (fun e => negb (is_arrive e)) a = true -> before_arrive (a ++ b) = a ++ before_arrive b.
Proof.
  induction a as [|e a IH]; intros H; [reflexivity|]. cbn [forallb] in H. apply andb_prop in H. destruct H as [H1 H2].
  cbn [app before_arrive]. destruct (is_arrive e); [discriminate H1|]. rewrite (IH H2). reflexivity.
Qed.

Lemma before_arrive_run s : c15_stag_wf s = true ->
  before_arrive (run s) = mid_prefix s /\ exists rest, run s = mid_prefix s ++ EArrive (s_cause s) :: rest.
Proof.
  intros W. destruct (stag_parts s W) as [_ [H [N [_ PH]]]].
  rewrite (run_ok s H), (head_mid s N PH), <- app_assoc. cbn [app]. split; [|eexists; reflexivity].
  rewrite before_arrive_app; [apply app_nil_r|]. apply forallb_forall. intros e He.
  apply mid_prefix_evs in He. ev_cases e He.
Qed.

(** nothing of the guard's drop, and no cancellation, has happened to a survivor *)
Lemma survivor_untouched s : c15_stag_wf s = true ->
  (exists rest, run s = before_arrive (run s) ++ EArrive (s_cause s) :: rest) /\
  (forall e, In e (before_arrive (run s)) -> guard_side e = false /\ is_offsees e = false).
Proof.
  intros W. destruct (before_arrive_run s W) as [E R]. rewrite E. split; [exact R|].
  intros e He. apply mid_prefix_evs in He. split; ev_cases e He.
Qed.

Lemma observe_served l : (forall e, In e l -> hook_ev e || mid_ev e = true) -> In EReaderStart l ->
  observe_mid l =
  mkMobs 0 (rv_present (rv_after rv0 l)) (N.of_nat (length (rv_keys (rv_after rv0 l))))
         (if existsb is_offstart l then Some false else None) true false true.
Proof.
  intros K R. unfold observe_mid.
  assert (Q : forall P, (forall e, hook_ev e || mid_ev e = true -> P e = false) -> existsb P l = false).
  { intros P HP. apply existsb_none. intros e He. exact (HP e (K e He)). }
  rewrite (filter_existsb is_disc_ev), (Q is_cancel_ev), (Q is_offsees), (Q is_exit_ev)
    by (try apply Q; intros e E; ev_cases e E).
  rewrite (proj2 (existsb_exists is_reader_ev l)) by (exists EReaderStart; split; [exact R|reflexivity]).
  reflexivity.
Qed.

Lemma mid_view s : c15_wf s = true -> rv_after rv0 (mid_prefix s) = vh s.
Proof.
  intros W. refine (proj2 (steps_inert_app rv0 [EHandshake true; EGuardBuilt] (hookpart s ++ mid_tail s) _ _ eq_refl _)).
  exact (steps_app _ _ _ _ _ _ _ (steps_hookpart s W) (steps_inert _ _ (mid_tail_inert s))).
Qed.

Lemma ok_model_mid s : c15_stag_wf s = true -> ok_mid s (model_mid s) = true.
Proof.
  intros W. destruct (stag_parts s W) as [W0 [_ [_ [N _]]]]. destruct (before_arrive_run s W) as [E _].
  unfold model_mid. rewrite E, (observe_served _ (mid_prefix_evs s)), (mid_view s W0).
  2:{ unfold mid_prefix, mid_tail. do 2 (apply in_or_app; right). left. reflexivity. }
  unfold ok_mid. cbn [m_disc m_present m_aliases m_seen m_alive m_trigger m_new].
  change (rv_present (vh s)) with (regran s). change (N.of_nat (length (rv_keys (vh s)))) with (akn s).
  rewrite <- N, inserted_regran, Bool.eqb_reflx, (akn_spec s W0), N, firstn_all, !N.eqb_refl.
  destruct (existsb is_offstart (mid_prefix s)); reflexivity.
Qed.
