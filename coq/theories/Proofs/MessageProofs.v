(** Write side: every emission route puts [to_vec m] on the wire
    ([write_chunks_concat], [into_wire_bytes_eq], [streaming_concat]; for the
    servers' framing [server_frame_concat], [stamp_eq_framed]), and [build] makes
    a consistent message ([build_ok]).

    Read side: the slice parsers are brought to a closed form, [parse_spec], in
    which no panicking branch is left; totality, soundness and completeness are
    read off it.  A parse and a stream read both return a message whose
    serialization the input starts with, and serializations are prefix-free:
    that is truncation. *)
From RepeV Require Import Model.Message Proofs.HeaderProofs.
From Coq Require Import ZifyBool ZifyN ZifyNat.

Lemma lenN_app {A} (a b : list A) : lenN (a ++ b) = lenN a + lenN b.
Proof. unfold lenN. rewrite app_length. apply Nat2N.inj_add. Qed.

Lemma lenN_cons {A} (x : A) (l : list A) : lenN (x :: l) = 1 + lenN l.
Proof. exact (lenN_app [x] l). Qed.

Lemma lenN_repeat {A} (x : A) n : lenN (repeat x n) = N.of_nat n.
Proof. unfold lenN. now rewrite repeat_length. Qed.

Lemma to_nat_lenN {A} (l : list A) : N.to_nat (lenN l) = length l.
Proof. apply Nat2N.id. Qed.

Lemma bytes_eqb_refl a : bytes_eqb a a = true.
Proof. induction a as [|x a IH]; cbn; [reflexivity|]. now rewrite N.eqb_refl. Qed.

Lemma bytes_eqb_eq a b : bytes_eqb a b = true <-> a = b.
Proof.
  split; [|intros ->; apply bytes_eqb_refl].
  revert b; induction a as [|x a IH]; intros [|y b]; cbn; try discriminate; try reflexivity.
  intros H. apply andb_true_iff in H as [H1 H2]. apply N.eqb_eq in H1. f_equal; auto.
Qed.

Lemma bytes_eqb_neq a b : a <> b -> bytes_eqb a b = false.
Proof.
  intros H. destruct (bytes_eqb a b) eqn:E; [|reflexivity].
  apply bytes_eqb_eq in E. contradiction.
Qed.

Lemma message_eqb_eq a b : message_eqb a b = true <-> a = b.
Proof.
  unfold message_eqb. split.
  - intros H. apply andb_true_iff in H as [H H3]. apply andb_true_iff in H as [H1 H2].
    apply header_eqb_eq in H1. apply bytes_eqb_eq in H2, H3. destruct a, b; cbn in *; now subst.
  - intros ->. now rewrite (proj2 (header_eqb_eq (m_hdr b) (m_hdr b)) eq_refl), !bytes_eqb_refl.
Qed.

Lemma message_eqb_refl m : message_eqb m m = true.
Proof. now apply message_eqb_eq. Qed.

Lemma to_vec_length m : length (to_vec m) = (48 + length (m_query m) + length (m_body m))%nat.
Proof. unfold to_vec. rewrite !app_length, encode_length. lia. Qed.

Lemma concat_nonempty_chunk c : concat (nonempty_chunk c) = c.
Proof. destruct c; [reflexivity|]. unfold nonempty_chunk, concat. apply app_nil_r. Qed.

Lemma write_chunks_concat m : concat (write_chunks m) = to_vec m.
Proof.
  unfold write_chunks, to_vec. rewrite !concat_app, !concat_nonempty_chunk.
  cbn [concat]. now rewrite app_nil_r.
Qed.

Lemma overwrite_mid (x y z src : list byte) off :
  length x = off -> length src = length y -> overwrite (x ++ y ++ z) off src = x ++ src ++ z.
Proof.
  intros <- Hy. unfold overwrite.
  now rewrite firstn_app_exact, Hy, <- app_length, (app_assoc x y z), skipn_app_exact.
Qed.

Lemma overwrite_front (y z src : list byte) :
  length src = length y -> overwrite (y ++ z) 0 src = src ++ z.
Proof. exact (overwrite_mid [] y z src 0 eq_refl). Qed.

Lemma overwrite_nil (v : list byte) off : overwrite v off [] = v.
Proof. unfold overwrite. cbn [length app]. rewrite Nat.add_0_r. apply firstn_skipn. Qed.

Lemma lenN_overwrite (v src : list byte) off :
  (off + length src <= length v)%nat -> lenN (overwrite v off src) = lenN v.
Proof.
  intros H. unfold lenN, overwrite. rewrite !app_length, firstn_length, skipn_length. lia.
Qed.

Lemma lenN_copy_within (v : list byte) s e d :
  (s <= e)%nat -> (e <= length v)%nat -> (d + (e - s) <= length v)%nat ->
  lenN (copy_within v s e d) = lenN v.
Proof. intros H1 H2 H3. unfold copy_within. apply lenN_overwrite. rewrite slice_length by lia. lia. Qed.

Lemma split3 {A} (v : list A) a b c :
  length v = (a + b + c)%nat ->
  exists x y z, v = x ++ y ++ z /\ length x = a /\ length y = b /\ length z = c.
Proof.
  intros L. exists (firstn a v), (firstn b (skipn a v)), (skipn b (skipn a v)).
  rewrite !firstn_skipn, !firstn_length, !skipn_length. repeat split; lia.
Qed.

(** the three in-place writes of [into_wire_bytes], on a buffer of the right
    length whatever it holds: body to the end, header to the front, query between *)
Lemma in_place_writes (E q b v : list byte) :
  length v = (length E + length q + length b)%nat ->
  overwrite (overwrite (overwrite v (length E + length q) b) 0 E) (length E) q = E ++ q ++ b.
Proof.
  intros L. destruct (split3 v _ _ _ L) as (P1 & P2 & R & -> & L1 & L2 & L3).
  rewrite (app_assoc P1), <- (app_nil_r R), overwrite_mid, app_nil_r, <- app_assoc
    by (rewrite ?app_length; congruence).
  rewrite overwrite_front by (symmetry; exact L1).
  now apply overwrite_mid.
Qed.

Lemma into_wire_bytes_eq cap m : into_wire_bytes cap m = to_vec m.
Proof.
  unfold into_wire_bytes, to_vec. destruct (_ <=? cap); [|reflexivity].
  generalize (encode_length (m_hdr m)).
  generalize (encode (m_hdr m)) (m_query m) (m_body m). intros E q b LE.
  set (v1 := b ++ repeat 0 _).
  assert (length v1 = length E + length q + length b)%nat as Lv
    by (unfold v1; rewrite app_length, repeat_length, LE; lia).
  assert (slice v1 0 (length b) = b) as Sb by apply (slice_mid [] b _ 0 _ eq_refl eq_refl).
  (* a write of nothing changes nothing: both conditionals collapse *)
  replace (if (0 <? length b)%nat then copy_within v1 0 (length b) (48 + length q) else v1)
    with (overwrite v1 (48 + length q) b)
    by (unfold copy_within; rewrite Sb; destruct b; [apply overwrite_nil|reflexivity]).
  rewrite <- LE. destruct q; [rewrite <- (overwrite_nil _ (length E))|]; now apply in_place_writes.
Qed.

Lemma streaming_concat h q body chunks :
  concat chunks = body ->
  concat (write_streaming_chunks h q (lenN body) chunks)
  = to_vec (mkMessage (patch_lengths h (lenN q) (lenN body)) q body).
Proof.
  intros Hc. unfold write_streaming_chunks, to_vec.
  rewrite !concat_app, concat_nonempty_chunk, Hc. cbn [concat]. now rewrite app_nil_r.
Qed.

(** the frame a response is sent as, on every server path *)
Definition framed (resp : message) (req_q : list byte) : message :=
  let q := echo_query (m_query resp) req_q in
  mkMessage (patch_lengths (m_hdr resp) (lenN q) (lenN (m_body resp))) q (m_body resp).

Lemma server_frame_concat resp req_q :
  concat (server_frame resp req_q) = to_vec (framed resp req_q).
Proof.
  unfold server_frame, framed. apply streaming_concat. apply concat_nonempty_chunk.
Qed.

Lemma patch_lengths_id h :
  h_length h = HEADER_SIZE + h_qlen h + h_blen h -> patch_lengths h (h_qlen h) (h_blen h) = h.
Proof. intros H. unfold patch_lengths. rewrite <- H. now destruct h. Qed.

Lemma patch_lengths_twice h ql bl ql' bl' :
  patch_lengths (patch_lengths h ql bl) ql' bl' = patch_lengths h ql' bl'.
Proof. reflexivity. Qed.

Lemma hdr_ok_patch h ql bl :
  hdr_ok h = true -> HEADER_SIZE + ql + bl < two64 -> hdr_ok (patch_lengths h ql bl) = true.
Proof.
  unfold hdr_ok, patch_lengths, HEADER_SIZE.
  cbn [h_length h_spec h_version h_notify h_reserved h_id h_qlen h_blen h_qfmt h_bfmt h_ec]. lia.
Qed.

Lemma msg_ok_parts m : msg_ok m = true ->
  hdr_ok (m_hdr m) = true /\ bytes_ok (m_query m) = true /\ bytes_ok (m_body m) = true /\
  h_spec (m_hdr m) = REPE_SPEC /\ h_qlen (m_hdr m) = lenN (m_query m) /\
  h_blen (m_hdr m) = lenN (m_body m) /\
  h_length (m_hdr m) = HEADER_SIZE + lenN (m_query m) + lenN (m_body m).
Proof.
  unfold msg_ok. intros H. do 6 (apply andb_true_iff in H as [H ?E]).
  apply N.eqb_eq in E, E0, E1, E2. repeat split; assumption.
Qed.

Definition lens_ok (m : message) : Prop :=
  h_qlen (m_hdr m) = lenN (m_query m) /\ h_blen (m_hdr m) = lenN (m_body m) /\
  h_length (m_hdr m) = HEADER_SIZE + lenN (m_query m) + lenN (m_body m).

Lemma patch_lengths_self m :
  lens_ok m -> patch_lengths (m_hdr m) (lenN (m_query m)) (lenN (m_body m)) = m_hdr m.
Proof. intros (<- & <- & Hl). now apply patch_lengths_id. Qed.

(** WebSocket stamping frames the same message as the TCP echo, for any
    response whose own lengths are consistent (what [build] guarantees) *)
Lemma stamp_eq_framed resp req_q :
  lens_ok resp -> stamp resp req_q = framed resp req_q.
Proof.
  intros L. pose proof (patch_lengths_self _ L) as P. destruct L as (_ & Hb & _).
  unfold stamp, framed, echo_query. destruct resp as [h q b]. cbn [m_hdr m_query m_body] in *.
  destruct req_q, q; rewrite ?P, ?Hb; reflexivity.
Qed.

Lemma msg_ok_lens m : msg_ok m = true -> lens_ok m.
Proof. intros H. apply msg_ok_parts in H as (_ & _ & _ & _ & Hq & Hb & Hl). now repeat split. Qed.

Lemma msg_ok_intro m :
  hdr_ok (m_hdr m) = true -> bytes_ok (m_query m) = true -> bytes_ok (m_body m) = true ->
  h_spec (m_hdr m) = REPE_SPEC -> lens_ok m -> msg_ok m = true.
Proof.
  intros Hh Hq Hb Hs (L1 & L2 & L3). unfold msg_ok.
  now rewrite Hh, Hq, Hb, Hs, L1, L2, L3, !N.eqb_refl.
Qed.

Lemma decode_msg_hdr m : msg_ok m = true -> decode (encode (m_hdr m)) = Ok (m_hdr m).
Proof.
  intros H. apply msg_ok_parts in H as (Hh & _ & _ & Hs & Hq & Hb & Hl).
  rewrite <- (app_nil_r (encode _)). apply decode_encode; [exact Hh|exact Hs|now rewrite Hq, Hb].
Qed.

Lemma build_ok b :
  bytes_ok (b_query b) = true -> bytes_ok (b_body b) = true ->
  b_id b < two64 -> b_qfmt b < two16 -> b_bfmt b < two16 -> b_ec b < two32 ->
  HEADER_SIZE + lenN (b_query b) + lenN (b_body b) < two64 ->
  msg_ok (build b) = true.
Proof.
  intros Hq Hb Hid Hqf Hbf Hec Hlen. unfold msg_ok, build, hdr_ok.
  cbn [m_hdr m_query m_body h_length h_spec h_version h_notify h_reserved h_id h_qlen h_blen
       h_qfmt h_bfmt h_ec].
  assert (lenN (b_query b) < two64 /\ lenN (b_body b) < two64) as [Lq Lb]
    by (clear - Hlen; unfold HEADER_SIZE in Hlen; lia).
  apply N.ltb_lt in Hid, Hqf, Hbf, Hec, Hlen, Lq, Lb.
  rewrite Hq, Hb, !N.eqb_refl, Hlen, Hid, Lq, Lb, Hqf, Hbf, Hec. now destruct (b_notify b).
Qed.

Lemma msg_new_lens h q b :
  h_qlen h = lenN q -> h_blen h = lenN b -> h_length h = HEADER_SIZE + lenN q + lenN b ->
  msg_new h q b = Ok (mkMessage h q b).
Proof. intros Hq Hb Hl. unfold msg_new. now rewrite Hq, Hb, Hl, !N.eqb_refl. Qed.

Lemma msg_new_ok h q b m :
  msg_new h q b = Ok m ->
  m = mkMessage h q b /\ h_qlen h = lenN q /\ h_blen h = lenN b /\
  h_length h = HEADER_SIZE + lenN q + lenN b.
Proof.
  unfold msg_new.
  destruct (N.eqb_spec (h_qlen h) (lenN q)), (N.eqb_spec (h_blen h) (lenN b)),
    (N.eqb_spec (h_length h) (HEADER_SIZE + lenN q + lenN b)); try discriminate.
  intros [= <-]. auto.
Qed.

Lemma msg_new_eq h q b :
  msg_new h q b =
  if (h_qlen h =? lenN q) && (h_blen h =? lenN b) && (h_length h =? HEADER_SIZE + lenN q + lenN b)
  then Ok (mkMessage h q b) else Err ELenMismatch.
Proof. unfold msg_new. now destruct (_ =? _), (_ =? _), (_ =? _). Qed.

Lemma msg_new_total h q b : crashes (msg_new h q b) = false.
Proof. unfold msg_new. destruct (_ || _); [reflexivity|]. destruct (negb _); reflexivity. Qed.

Lemma add64_ok a b : a + b < two64 -> add64 a b = Ok (a + b).
Proof. intros H. unfold add64. now rewrite (proj2 (N.ltb_lt _ _) H). Qed.

Lemma add64_inv a b c : add64 a b = Ok c -> c = a + b /\ a + b < two64.
Proof. unfold add64. destruct (N.ltb_spec (a + b) two64); intros [= <-]. now split. Qed.

Lemma slice_chk_ok {A} (bs : list A) a b :
  a <= b -> b <= lenN bs -> slice_chk bs a b = Ok (slice bs (N.to_nat a) (N.to_nat b)).
Proof.
  intros H1 H2. unfold slice_chk. fold (lenN bs).
  now rewrite (proj2 (N.leb_le _ _) H1), (proj2 (N.leb_le _ _) H2).
Qed.

Lemma slice_chk_inv {A} (bs : list A) a b l :
  slice_chk bs a b = Ok l ->
  a <= b /\ b <= lenN bs /\ l = slice bs (N.to_nat a) (N.to_nat b) /\ lenN l = b - a.
Proof.
  unfold slice_chk. fold (lenN bs). destruct ((a <=? b) && (b <=? lenN bs)) eqn:E; intros [= <-].
  assert (a <= b /\ b <= lenN bs) as [H1 H2] by lia.
  repeat split; trivial. unfold lenN in *. rewrite slice_length; lia.
Qed.

Lemma firstn_48_encode_app h rest : firstn 48 (encode h ++ rest) = encode h.
Proof. rewrite <- (encode_length h). apply firstn_app_exact. Qed.

Section Frame.
  Variables (bs : list byte) (ql bl : N).
  Hypothesis Hle : HEADER_SIZE + ql + bl <= lenN bs.

  Lemma frame_query :
    slice_chk bs HEADER_SIZE (HEADER_SIZE + ql) = Ok (slice bs 48 (48 + N.to_nat ql)).
  Proof. rewrite slice_chk_ok by lia. now rewrite N2Nat.inj_add. Qed.

  Lemma frame_body :
    slice_chk bs (HEADER_SIZE + ql) (HEADER_SIZE + ql + bl)
    = Ok (slice bs (48 + N.to_nat ql) (48 + N.to_nat ql + N.to_nat bl)).
  Proof. rewrite slice_chk_ok by lia. now rewrite !N2Nat.inj_add. Qed.

  Lemma frame_query_len : lenN (slice bs 48 (48 + N.to_nat ql)) = ql.
  Proof. unfold lenN, HEADER_SIZE in *. rewrite slice_length; lia. Qed.

  Lemma frame_body_len :
    lenN (slice bs (48 + N.to_nat ql) (48 + N.to_nat ql + N.to_nat bl)) = bl.
  Proof. unfold lenN, HEADER_SIZE in *. rewrite slice_length; lia. Qed.
End Frame.

(** the slice parsers in closed form: no crash branch survives, and
    [Message::new]'s re-check never fails after a successful decode. *)
Definition parse_spec (bs : list byte) : outcome message :=
  if lenN bs <? HEADER_SIZE then Err EHeaderLen else
  do h <- decode (firstn 48 bs);
  if lenN bs <? h_length h then Err EBufSmall
  else Ok (mkMessage h (slice bs 48 (48 + N.to_nat (h_qlen h)))
             (slice bs (48 + N.to_nat (h_qlen h)) (48 + N.to_nat (h_qlen h) + N.to_nat (h_blen h)))).

(** the owned and the borrowing parser at once: they differ only in where the
    two slicings stand and in the re-check *)
Lemma slice_parsers_closed bs : from_slice bs = parse_spec bs /\ view_from_slice bs = parse_spec bs.
Proof.
  unfold from_slice, view_from_slice, parse_spec.
  destruct (lenN bs <? HEADER_SIZE); [split; reflexivity|].
  destruct (decode (firstn 48 bs)) as [h|e| |] eqn:D; cbn [bind]; try (split; reflexivity).
  apply decode_ok_spec, decode_spec_sum in D as (_ & Hl & Hlt). rewrite Hl in *.
  rewrite (add64_ok HEADER_SIZE (h_qlen h)) by (clear - Hlt; lia). cbn [bind].
  rewrite (add64_ok _ _ Hlt). cbn [bind].
  destruct (N.ltb_spec (lenN bs) (HEADER_SIZE + h_qlen h + h_blen h)) as [|Hle]; [split; reflexivity|].
  rewrite (frame_query _ _ _ Hle), (frame_body _ _ _ Hle). cbn [bind]. split; [|reflexivity].
  apply msg_new_lens; rewrite ?(frame_query_len _ _ _ Hle), ?(frame_body_len _ _ _ Hle); auto.
Qed.

Lemma from_slice_closed bs : from_slice bs = parse_spec bs.
Proof. apply slice_parsers_closed. Qed.

Lemma view_eq_owned bs : view_from_slice bs = from_slice bs.
Proof. destruct (slice_parsers_closed bs) as [-> ->]. reflexivity. Qed.

Lemma parse_spec_total bs : crashes (parse_spec bs) = false.
Proof.
  unfold parse_spec. destruct (lenN bs <? HEADER_SIZE); [reflexivity|].
  apply bind_crashes; [apply decode_total|]. intros h. destruct (_ <? _); reflexivity.
Qed.

(** C02: no byte string crashes a slice parser *)
Lemma from_slice_total bs : crashes (from_slice bs) = false.
Proof. rewrite from_slice_closed. apply parse_spec_total. Qed.

Lemma from_slice_exact_total bs : crashes (from_slice_exact bs) = false.
Proof.
  unfold from_slice_exact. apply bind_crashes; [apply from_slice_total|].
  intros m. destruct (negb _); reflexivity.
Qed.

Lemma view_exact_eq bs : view_from_slice_exact bs = from_slice_exact bs.
Proof. unfold view_from_slice_exact, from_slice_exact. now rewrite view_eq_owned. Qed.

(** What a successful parse means: magic, exact sum in N, whole frame present,
    query and body are exactly the corresponding input bytes. *)
Definition parse_ok (bs : list byte) (m : message) : Prop :=
  decode_spec (firstn 48 bs) (m_hdr m) /\
  h_length (m_hdr m) <= lenN bs /\
  m_query m = slice bs 48 (48 + N.to_nat (h_qlen (m_hdr m))) /\
  m_body m = slice bs (48 + N.to_nat (h_qlen (m_hdr m)))
                      (48 + N.to_nat (h_qlen (m_hdr m)) + N.to_nat (h_blen (m_hdr m))).

Lemma from_slice_ok bs m : from_slice bs = Ok m -> parse_ok bs m.
Proof.
  rewrite from_slice_closed. unfold parse_spec, parse_ok.
  destruct (lenN bs <? HEADER_SIZE); [discriminate|]. intros H.
  apply bind_ok in H as (h & D & H).
  destruct (N.ltb_spec (lenN bs) (h_length h)) as [|Hle]; [discriminate|].
  injection H as <-. apply decode_ok_spec in D. exact (conj D (conj Hle (conj eq_refl eq_refl))).
Qed.

Lemma from_slice_complete bs m : parse_ok bs m -> from_slice bs = Ok m.
Proof.
  intros (D & Hlen & Hq & Hbd).
  rewrite from_slice_closed. unfold parse_spec.
  rewrite (decode_spec_ok _ _ D). cbn [bind]. rewrite (proj2 (N.ltb_ge _ _) Hlen).
  apply decode_spec_sum in D as (H48 & _). rewrite firstn_length in H48.
  replace (lenN bs <? HEADER_SIZE) with false by (unfold lenN, HEADER_SIZE; lia).
  destruct m as [h q b]. cbn [m_hdr m_query m_body] in *. now subst.
Qed.

Lemma parse_ok_decode bs m : parse_ok bs m -> decode bs = Ok (m_hdr m).
Proof.
  intros (D & _). rewrite <- (firstn_skipn 48 bs). now apply decode_app_ok, decode_spec_ok.
Qed.

Lemma parse_ok_lens bs m : parse_ok bs m -> lens_ok m.
Proof.
  intros (D & Hle & Hq & Hb). apply decode_spec_sum in D as (_ & Hl & _). rewrite Hl in Hle.
  unfold lens_ok.
  rewrite Hq, Hb, (frame_query_len _ _ _ Hle), (frame_body_len _ _ _ Hle). auto.
Qed.

Lemma from_slice_lens bs m :
  from_slice bs = Ok m -> HEADER_SIZE + lenN (m_query m) + lenN (m_body m) < two64.
Proof.
  intros H. apply from_slice_ok in H. destruct (parse_ok_lens _ _ H) as (_ & _ & <-).
  destruct H as (D & _). exact (proj2 (proj2 (decode_spec_sum _ _ D))).
Qed.

(** one encoding for whole frames: an accepted buffer starts with the
    serialization of the parsed message *)
Lemma from_slice_to_vec bs m :
  bytes_ok bs = true -> from_slice bs = Ok m ->
  firstn (N.to_nat (h_length (m_hdr m))) bs = to_vec m.
Proof.
  intros Hb H. apply from_slice_ok in H. unfold to_vec.
  rewrite <- (encode_decode bs _ Hb (parse_ok_decode _ _ H)).
  destruct H as (D & _ & -> & ->). apply decode_spec_sum in D as (_ & -> & _).
  rewrite app_assoc, !firstn_slice, !N2Nat.inj_add. reflexivity.
Qed.

Lemma to_vec_ok m : msg_ok m = true -> bytes_ok (to_vec m) = true.
Proof.
  intros H. apply msg_ok_parts in H as (_ & Hq & Hb & _).
  unfold to_vec. now rewrite !bytes_ok_app, encode_ok, Hq, Hb.
Qed.

Lemma lenN_to_vec_parts m : lenN (to_vec m) = HEADER_SIZE + lenN (m_query m) + lenN (m_body m).
Proof. unfold lenN. rewrite to_vec_length, !Nat2N.inj_add. reflexivity. Qed.

Lemma lenN_to_vec m : lens_ok m -> lenN (to_vec m) = h_length (m_hdr m).
Proof. intros (_ & _ & ->). apply lenN_to_vec_parts. Qed.

Lemma from_slice_round_trip m rest : msg_ok m = true -> from_slice (to_vec m ++ rest) = Ok m.
Proof.
  intros Hok. apply from_slice_complete. unfold parse_ok.
  destruct (msg_ok_lens m Hok) as (-> & -> & _). rewrite !to_nat_lenN.
  rewrite <- (lenN_to_vec m (msg_ok_lens m Hok)), lenN_app.
  unfold to_vec. rewrite <- !app_assoc, firstn_48_encode_app. split; [|split; [|split]].
  - apply decode_ok_spec, decode_msg_hdr, Hok.
  - apply N.le_add_r.
  - symmetry. apply slice_mid; [|reflexivity]. symmetry. apply encode_length.
  - symmetry. rewrite (app_assoc (encode _)). apply slice_mid; [|reflexivity].
    rewrite app_length, encode_length. reflexivity.
Qed.

Lemma from_slice_exact_app m rest :
  msg_ok m = true ->
  from_slice_exact (to_vec m ++ rest) = match rest with [] => Ok m | _ => Err ELenMismatch end.
Proof.
  intros Hok. unfold from_slice_exact. rewrite from_slice_round_trip by assumption. cbn [bind].
  rewrite lenN_app, <- lenN_to_vec_parts. destruct rest as [|x rest].
  - change (lenN (@nil byte)) with 0. now rewrite N.add_0_r, N.eqb_refl.
  - rewrite lenN_cons. replace (_ =? _) with false by lia. reflexivity.
Qed.

Lemma from_slice_exact_round_trip m :
  msg_ok m = true -> from_slice_exact (to_vec m) = Ok m.
Proof. intros Hok. rewrite <- (app_nil_r (to_vec m)) at 1. exact (from_slice_exact_app m [] Hok). Qed.

Lemma to_vec_inj a b : msg_ok a = true -> msg_ok b = true -> to_vec a = to_vec b -> a = b.
Proof.
  intros Ha Hb H.
  pose proof (from_slice_exact_round_trip a Ha) as Ra.
  pose proof (from_slice_exact_round_trip b Hb) as Rb.
  rewrite H, Rb in Ra. now injection Ra.
Qed.

Lemma from_slice_exact_ok bs m :
  from_slice_exact bs = Ok m -> parse_ok bs m /\ lenN bs = h_length (m_hdr m).
Proof.
  unfold from_slice_exact. intros H. apply bind_ok in H as (m' & Hm & H).
  apply from_slice_ok in Hm. destruct (parse_ok_lens _ _ Hm) as (_ & _ & Hl). rewrite <- Hl in H.
  destruct (N.eqb_spec (lenN bs) (h_length (m_hdr m'))); [|discriminate].
  injection H as <-. auto.
Qed.

Lemma from_slice_sound bs m :
  bytes_ok bs = true -> from_slice bs = Ok m ->
  msg_ok m = true /\ exists rest, bs = to_vec m ++ rest.
Proof.
  intros Hb F. pose proof (from_slice_to_vec bs m Hb F) as E. apply from_slice_ok in F.
  split; [|exists (skipn (N.to_nat (h_length (m_hdr m))) bs); now rewrite <- E, firstn_skipn].
  pose proof (bytes_ok_firstn (N.to_nat (h_length (m_hdr m))) _ Hb) as Hv.
  rewrite E in Hv. unfold to_vec in Hv. rewrite !bytes_ok_app in Hv.
  apply andb_true_iff in Hv as [_ Hv]. apply andb_true_iff in Hv as [Hq Hbd].
  apply msg_ok_intro; try assumption.
  - exact (decode_hdr_ok _ _ Hb (parse_ok_decode _ _ F)).
  - now destruct F as ((_ & _ & Hs & _) & _).
  - exact (parse_ok_lens _ _ F).
Qed.

(** serializations are prefix-free *)
Lemma frame_not_in_prefix m n m' r :
  msg_ok m = true -> msg_ok m' = true -> (n < length (to_vec m))%nat ->
  firstn n (to_vec m) <> to_vec m' ++ r.
Proof.
  intros Hok Hok' Hn E.
  (* the whole frame starts with [to_vec m'] too, so it parses as [m'] as well as [m] *)
  pose proof (from_slice_round_trip m' (r ++ skipn n (to_vec m)) Hok') as P.
  rewrite app_assoc, <- E, firstn_skipn, <- (app_nil_r (to_vec m)) in P.
  rewrite (from_slice_round_trip m [] Hok) in P. injection P as ->.
  apply (f_equal (@length _)) in E. rewrite firstn_length, app_length in E. lia.
Qed.

Lemma from_slice_truncated m n :
  msg_ok m = true -> (n < length (to_vec m))%nat ->
  exists e, from_slice (firstn n (to_vec m)) = Err e.
Proof.
  intros Hok Hn.
  pose proof (from_slice_total (firstn n (to_vec m))) as T.
  destruct (from_slice (firstn n (to_vec m))) as [m'|e| |] eqn:F; try discriminate; [|eauto].
  apply from_slice_sound in F as (Hok' & r & E); [|now apply bytes_ok_firstn, to_vec_ok].
  now destruct (frame_not_in_prefix m n m' r).
Qed.

Lemma read_exact_total src n : crashes (read_exact src n) = false.
Proof. unfold read_exact. destruct (lenN src <? n); reflexivity. Qed.

Lemma read_exact_app a rest : read_exact (a ++ rest) (lenN a) = Ok (a, rest).
Proof.
  unfold read_exact. rewrite lenN_app, to_nat_lenN, firstn_app_exact, skipn_app_exact.
  now rewrite (proj2 (N.ltb_ge _ _) (N.le_add_r _ _)).
Qed.

Lemma read_opt_app a rest :
  (if lenN a =? 0 then Ok ([], a ++ rest) else read_exact (a ++ rest) (lenN a)) = Ok (a, rest).
Proof. destruct a; [reflexivity|]. apply read_exact_app. Qed.

Lemma read_exact_hdr h rest : read_exact (encode h ++ rest) HEADER_SIZE = Ok (encode h, rest).
Proof. change HEADER_SIZE with (N.of_nat 48). rewrite <- (encode_length h). apply read_exact_app. Qed.

Lemma read_exact_ok src n a r :
  read_exact src n = Ok (a, r) -> src = a ++ r /\ lenN a = n.
Proof.
  unfold read_exact. destruct (N.ltb_spec (lenN src) n) as [|Hle]; [discriminate|].
  intros [= <- <-]. split; [now rewrite firstn_skipn|].
  unfold lenN in *. rewrite firstn_length. lia.
Qed.

Lemma read_opt_ok src n a r :
  (if n =? 0 then Ok ([], src) else read_exact src n) = Ok (a, r) -> src = a ++ r /\ lenN a = n.
Proof.
  destruct (N.eqb_spec n 0) as [->|]; [|apply read_exact_ok].
  intros [= <- <-]. now split.
Qed.

Section ReaderProofs.
  Variable can_alloc : N -> bool.

  Lemma alloc_total n : crashes (alloc can_alloc n) = false.
  Proof. unfold alloc. destruct (can_alloc n); reflexivity. Qed.

  (** C02 for the readers: whatever the stream and whatever the allocator
      answers, the reader returns a value or an error *)
  Lemma read_message_total src : crashes (read_message can_alloc src) = false.
  Proof.
    unfold read_message.
    apply bind_crashes; [apply read_exact_total|]. intros [hb s1].
    apply bind_crashes; [apply decode_total|]. intros h.
    apply bind_crashes; [apply alloc_total|]. intros _.
    apply bind_crashes; [destruct (h_qlen h =? 0); [reflexivity|apply read_exact_total]|]. intros [q s2].
    apply bind_crashes; [apply alloc_total|]. intros _.
    apply bind_crashes; [destruct (h_blen h =? 0); [reflexivity|apply read_exact_total]|]. intros [b s3].
    apply bind_crashes; [apply msg_new_total|]. reflexivity.
  Qed.

  Lemma read_message_into_total src : crashes (read_message_into can_alloc src) = false.
  Proof.
    unfold read_message_into.
    apply bind_crashes; [apply read_exact_total|]. intros [hb s1].
    apply bind_crashes; [apply decode_total|]. intros h.
    apply bind_crashes; [apply alloc_total|]. intros _.
    apply bind_crashes; [apply read_exact_total|]. intros [r s2]. reflexivity.
  Qed.

  Lemma read_message_round_trip m rest :
    msg_ok m = true ->
    can_alloc (lenN (m_query m)) = true -> can_alloc (lenN (m_body m)) = true ->
    read_message can_alloc (to_vec m ++ rest) = Ok (m, rest).
  Proof.
    intros Hok Ha1 Ha2. destruct (msg_ok_lens m Hok) as (Hql & Hbl & Hl).
    unfold read_message, to_vec, alloc.
    rewrite <- !app_assoc, read_exact_hdr. cbn [bind]. rewrite (decode_msg_hdr m Hok). cbn [bind].
    rewrite Hql, Ha1. cbn [bind]. rewrite read_opt_app. cbn [bind].
    rewrite Hbl, Ha2. cbn [bind]. rewrite read_opt_app. cbn [bind].
    rewrite msg_new_lens by assumption. now destruct m.
  Qed.

  Lemma read_message_into_round_trip m rest :
    msg_ok m = true -> can_alloc (h_length (m_hdr m)) = true ->
    read_message_into can_alloc (to_vec m ++ rest) = Ok (to_vec m, rest).
  Proof.
    intros Hok Ha. destruct (msg_ok_lens m Hok) as (_ & _ & Hl).
    unfold read_message_into, to_vec, alloc.
    rewrite <- !app_assoc, read_exact_hdr. cbn [bind]. rewrite (decode_msg_hdr m Hok). cbn [bind].
    rewrite Ha. cbn [bind].
    replace (h_length (m_hdr m) - HEADER_SIZE) with (lenN (m_query m ++ m_body m))
      by (rewrite Hl, lenN_app; clear; lia).
    now rewrite (app_assoc (m_query m)), read_exact_app.
  Qed.

  Lemma read_message_ok src m r :
    bytes_ok src = true -> read_message can_alloc src = Ok (m, r) ->
    src = to_vec m ++ r /\ msg_ok m = true.
  Proof.
    intros Hb F. unfold read_message in F.
    apply bind_ok in F as ([hb s1] & R0 & F).
    apply read_exact_ok in R0 as [-> Lhb].
    apply bind_ok in F as (h & D & F).
    apply bind_ok in F as (_ & _ & F).
    apply bind_ok in F as ([q s2] & R1 & F).
    apply read_opt_ok in R1 as [-> Lq].
    apply bind_ok in F as (_ & _ & F).
    apply bind_ok in F as ([b s3] & R2 & F).
    apply read_opt_ok in R2 as [-> Lb].
    apply bind_ok in F as (m0 & M & [= <- <-]).
    apply msg_new_ok in M as (-> & _ & _ & Hl).
    rewrite !bytes_ok_app in Hb.
    apply andb_true_iff in Hb as [Hb1 Hb]. apply andb_true_iff in Hb as [Hb2 Hb].
    apply andb_true_iff in Hb as [Hb3 _].
    pose proof (encode_decode hb h Hb1 D) as Henc.
    rewrite firstn_all2 in Henc by (clear - Lhb; unfold lenN, HEADER_SIZE in Lhb; lia).
    split.
    - unfold to_vec. cbn [m_hdr m_query m_body]. now rewrite <- Henc, <- !app_assoc.
    - unfold msg_ok. cbn [m_hdr m_query m_body].
      rewrite (decode_hdr_ok hb h Hb1 D), Hb2, Hb3, Hl, Lq, Lb, !N.eqb_refl.
      apply decode_ok_spec in D as (_ & _ & -> & _). reflexivity.
  Qed.

  Lemma read_message_into_ok src f r :
    read_message_into can_alloc src = Ok (f, r) ->
    src = f ++ r /\ exists h, decode f = Ok h /\ lenN f = h_length h.
  Proof.
    unfold read_message_into. intros F.
    apply bind_ok in F as ([hb s1] & R0 & F). apply read_exact_ok in R0 as [-> Lhb].
    apply bind_ok in F as (h & D & F).
    apply bind_ok in F as (_ & _ & F).
    apply bind_ok in F as ([x s2] & R1 & [= <- <-]). apply read_exact_ok in R1 as [-> Lx].
    split; [apply app_assoc|]. exists h. split; [now apply decode_app_ok|].
    apply decode_ok_spec in D as (_ & _ & _ & Hl & _).
    unfold lenN in *. rewrite app_length, Nat2N.inj_add, Lhb, Lx. clear - Hl. lia.
  Qed.

  Lemma read_message_from_slice src m r :
    bytes_ok src = true -> read_message can_alloc src = Ok (m, r) -> from_slice src = Ok m.
  Proof. intros Hb F. apply read_message_ok in F as [-> Hok]; [now apply from_slice_round_trip|exact Hb]. Qed.

  Lemma read_message_truncated m n :
    msg_ok m = true -> (n < length (to_vec m))%nat ->
    exists e, read_message can_alloc (firstn n (to_vec m)) = Err e.
  Proof.
    intros Hok Hn.
    pose proof (read_message_total (firstn n (to_vec m))) as T.
    destruct (read_message can_alloc (firstn n (to_vec m))) as [[m' r]|e| |] eqn:F;
      try discriminate; [|eauto].
    apply read_message_ok in F as [E Hok']; [|now apply bytes_ok_firstn, to_vec_ok].
    now destruct (frame_not_in_prefix m n m' r).
  Qed.
End ReaderProofs.
