(** Agreement of the hand-written models of frame construction (Model/Message.v:
    [to_vec], [into_wire_bytes], [build], [stamp], [echo_query]) with the Gallina
    rendering that bin/rs2v regenerates from /repo/src/header.rs and
    src/message.rs on every run (Gen/BuildGen.v).  The rendering keeps every
    panicking operation of the Rust text (overflow-checked [+], bounds-checked
    [copy_within] / [copy_from_slice]); where the code adds lengths with
    overflow-checked u64 [+] and the model adds in [N], the statement says
    exactly when they differ (the sum reaches 2^64).  A function that could not
    be translated is [None] and its lemma degrades to [True]. *)
From RepeV Require Import Model.Message Proofs.HeaderProofs Proofs.MessageProofs Base.GenVecPrelude Gen.FrameGen Gen.BuildGen.
From RepeV Require Export Proofs.FrameGenAgree.
From Coq Require Import ZifyBool.

Lemma copy_within_chk_ok (v : list byte) s e d :
  (s <=? e) && (e <=? lenN v) && (d + (e - s) <=? lenN v) = true ->
  copy_within_chk v s e d = Ok (copy_within v (N.to_nat s) (N.to_nat e) (N.to_nat d)).
Proof. unfold copy_within_chk. now intros ->. Qed.

Lemma lenN_encode h : lenN (encode h) = 48.
Proof. unfold lenN. now rewrite encode_length. Qed.
Lemma is_empty_nil {A} (l : list A) : (lenN l =? 0) = match l with [] => true | _ => false end.
Proof. destruct l; reflexivity. Qed.

(** the offsets of the code, sums of lengths in [N], as the model writes them in [nat] *)
Ltac norm_nat :=
  rewrite ?N2Nat.inj_add, ?to_nat_lenN; change (N.to_nat 0) with 0%nat; change (N.to_nat HEADER_SIZE) with 48%nat.

(** field updates of a local header / message, innermost first (call by value: unfolding the
    setters outside-in would copy the inner term eleven times at each level) *)
Ltac hdr_norm :=
  cbv beta iota zeta delta
    [set_h_length set_h_spec set_h_version set_h_notify set_h_reserved set_h_id set_h_qlen set_h_blen
     set_h_qfmt set_h_bfmt set_h_ec set_m_hdr set_m_query set_m_body
     h_length h_spec h_version h_notify h_reserved h_id h_qlen h_blen h_qfmt h_bfmt h_ec m_hdr m_query m_body].

Lemma header_new_agrees :
  match gen_header_new with
  | Some f => f = Ok (mkHeader 0 REPE_SPEC REPE_VERSION 0 0 0 0 0 0 0 0)
  | None => True
  end.
Proof. gen_start. all: reflexivity. Qed.

(** MessageBuilder::build: the code adds [48 + |q| + |b|] with overflow-checked u64 [+] *)
Lemma build_agrees :
  match gen_build with
  | Some f => forall b,
      f b = if HEADER_SIZE + lenN (b_query b) + lenN (b_body b) <? two64 then Ok (build b) else Panic
  | None => True
  end.
Proof.
  pose proof header_new_agrees as Hn.
  gen_start. all: intros b; callee Hn; rewrite ?Hn; unfold build, add64, bind.
  all: hdr_norm; unfold HEADER_SIZE, QF_RAW_BINARY, BF_RAW_BINARY.
  all: split_ctrl; done.
Qed.

Lemma response_echo_query_agrees :
  match gen_response_echo_query with
  | Some f => forall resp q, f resp q = Ok (echo_query (m_query resp) q)
  | None => True
  end.
Proof.
  gen_start. all: intros resp q; unfold echo_query; rewrite ?is_empty_nil.
  all: destruct (m_query resp); split_all; done.
Qed.

(** the code recomputes [48 + |q| + body_length] with overflow-checked u64 [+]; [body_length] is a
    field of the response header (any u64), so the sum can reach 2^64: exactly then the code panics
    (debug profile) where the model adds in [N] *)
Lemma stamp_response_query_agrees :
  match gen_stamp_response_query with
  | Some f => forall resp q,
      f resp q = if (lenN q =? 0) || negb (lenN (m_query resp) =? 0) || (HEADER_SIZE + lenN q + h_blen (m_hdr resp) <? two64)
                 then Ok (stamp resp q) else Panic
  | None => True
  end.
Proof.
  gen_start. all: intros [[l s v n r i ql bl qf bf e] rq rb] q; unfold stamp, patch_lengths, add64, bind; rewrite ?is_empty_nil.
  all: hdr_norm; unfold HEADER_SIZE.
  all: destruct q as [|x q], rq as [|y rq]; cbn [orb negb]; cbv beta iota; try reflexivity.
  all: split_ctrl; done.
Qed.

(** Message::to_vec: [Vec::with_capacity(48 + |q| + |b|)] computes its argument with
    overflow-checked [+]; Header::encode stores the two u8 fields as they are *)
Lemma to_vec_agrees :
  match gen_to_vec with
  | Some f => forall m, h_version (m_hdr m) < 256 -> h_notify (m_hdr m) < 256 ->
      f m = if HEADER_SIZE + lenN (m_query m) + lenN (m_body m) <? two64 then Ok (to_vec m) else Panic
  | None => True
  end.
Proof.
  pose proof encode_agrees as He.
  gen_start. all: intros m Hv Hn; callee He; rewrite ?(He _ Hv Hn); unfold to_vec, add64, bind; rewrite ?is_empty_nil.
  all: destruct (m_query m), (m_body m); cbv beta iota zeta; cbn [negb]; rewrite ?app_nil_l, ?app_nil_r, <- ?app_assoc.
  all: unfold HEADER_SIZE; split_ctrl; done.
Qed.

(** Message::into_wire_bytes; [cap] is the capacity of the body vector *)
Lemma into_wire_bytes_agrees :
  match gen_into_wire_bytes with
  | Some f => forall cap m, h_version (m_hdr m) < 256 -> h_notify (m_hdr m) < 256 ->
      f cap m = if HEADER_SIZE + lenN (m_query m) + lenN (m_body m) <? two64 then Ok (into_wire_bytes cap m) else Panic
  | None => True
  end.
Proof.
  pose proof encode_agrees as He.
  gen_start. all: intros cap [h q b] Hv Hn; callee He; cbn [m_hdr m_query m_body] in *; rewrite ?(He _ Hv Hn).
  all: unfold into_wire_bytes; cbv zeta; cbn [m_hdr m_query m_body].
  all: pose proof (lenN_encode h) as Hel; set (enc := encode h) in *; clearbody enc; clear He Hv Hn.
  all: replace (N.of_nat (48 + length q + length b)) with (HEADER_SIZE + lenN q + lenN b) by len_lia.
  all: replace (0 <? length b)%nat with (0 <? lenN b) by len_lia.
  all: rewrite ?is_empty_nil; unfold add64, bind; split_ctrl.
  all: try reflexivity.
  all: try match goal with |- Panic = Ok _ => exfalso; lia end.
  (* the fresh buffer *)
  all: try match goal with |- Ok _ = Ok _ =>
         destruct q, b; try discriminate; rewrite ?app_nil_l, ?app_nil_r, <- ?app_assoc; reflexivity end.
  (* in place: from here on a buffer is known by its length only *)
  all: rewrite vec_resize_grow by len_lia; norm_nat; unfold byte in *.
  all: match goal with |- context [?l ++ repeat 0 ?k] => set (v := l ++ repeat 0 k) in * end.
  all: assert (L : lenN v = HEADER_SIZE + lenN q + lenN b) by (subst v; rewrite lenN_app, lenN_repeat; len_lia); clearbody v.
  all: try (rewrite copy_within_chk_ok by len_lia; norm_nat;
            match goal with |- context [copy_within ?l ?s ?e ?d] => set (v' := copy_within l s e d) in * end;
            assert (L' : lenN v' = HEADER_SIZE + lenN q + lenN b) by (subst v'; rewrite lenN_copy_within; len_lia);
            clearbody v'; clear v L; revert v' L'; intros v L).
  all: rewrite copy_chk_ok by len_lia; norm_nat.
  all: destruct q as [|x q]; cbn [negb]; cbv beta iota; [reflexivity|].
  all: rewrite copy_chk_ok by (rewrite ?lenN_overwrite; len_lia); reflexivity.
Qed.

(** ... hence, for every frame that can exist and whatever the capacity, the bytes of [to_vec] *)
Lemma into_wire_bytes_small :
  match gen_into_wire_bytes with
  | Some f => forall cap m, h_version (m_hdr m) < 256 -> h_notify (m_hdr m) < 256 ->
      HEADER_SIZE + lenN (m_query m) + lenN (m_body m) < two64 -> f cap m = Ok (to_vec m)
  | None => True
  end.
Proof.
  pose proof into_wire_bytes_agrees as Ha. by_agree Ha.
  (* [m] is the statement's binder, introduced by [by_agree] under that name *)
  all: rewrite Ha, into_wire_bytes_eq by assumption.
  all: replace (HEADER_SIZE + lenN (m_query m) + lenN (m_body m) <? two64) with true by lia; reflexivity.
Qed.
