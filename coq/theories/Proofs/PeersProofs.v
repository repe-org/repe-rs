(** Proofs about the peer registry model (Model/Peers.v): the concrete
    registry [preg]/[pstep] refines the specification [pspec]/[sstep].
    First the facts about the association lists and N-lists of the model
    ([aget], [aset], [adel], [memN], [delN]) that the C04 and C15 proofs use
    as well; then the specification's own laws; then the refinement. *)
From RepeV Require Import Model.Peers.

Lemma aget_aset {V} (l : list (N * V)) k v k' :
  aget (aset l k v) k' = if k =? k' then Some v else aget l k'.
Proof.
  induction l as [|[k0 v0] l IH]; cbn [aset aget].
  - reflexivity.
  - destruct (N.eqb_spec k0 k) as [E|E].
    + subst k0. cbn [aget]. destruct (N.eqb_spec k k'); reflexivity.
    + cbn [aget]. rewrite IH. destruct (N.eqb_spec k0 k') as [E1|E1]; [|reflexivity].
      subst k0. destruct (N.eqb_spec k k'); [congruence|reflexivity].
Qed.

Lemma aget_adel {V} (l : list (N * V)) k k' :
  aget (adel l k) k' = if k =? k' then None else aget l k'.
Proof.
  induction l as [|[k0 v0] l IH]; cbn [adel aget].
  - destruct (k =? k'); reflexivity.
  - destruct (N.eqb_spec k0 k) as [E|E].
    + subst k0. rewrite IH. destruct (N.eqb_spec k k'); reflexivity.
    + cbn [aget]. rewrite IH. destruct (N.eqb_spec k0 k') as [E1|E1]; [|reflexivity].
      subst k0. destruct (N.eqb_spec k k'); [congruence|reflexivity].
Qed.

Lemma aget_app {V} (l1 l2 : list (N * V)) k :
  aget (l1 ++ l2) k = match aget l1 k with Some v => Some v | None => aget l2 k end.
Proof.
  induction l1 as [|[k0 v0] l1 IH]; cbn [app aget]; [reflexivity|].
  destruct (k0 =? k); [reflexivity|exact IH].
Qed.

Lemma aget_None {V} (l : list (N * V)) k : aget l k = None <-> ~ In k (map fst l).
Proof.
  induction l as [|[k0 v0] l IH]; cbn [aget map fst In]; [tauto|].
  destruct (N.eqb_spec k0 k) as [E|E]; [split; [discriminate|tauto]|rewrite IH; tauto].
Qed.

Lemma aget_Some_In {V} (l : list (N * V)) k v : aget l k = Some v -> In (k, v) l.
Proof.
  induction l as [|[k0 v0] l IH]; cbn [aget In]; [discriminate|].
  destruct (N.eqb_spec k0 k) as [E|E]; intros H.
  - left. congruence.
  - right. exact (IH H).
Qed.

Lemma In_aget {V} (l : list (N * V)) k v :
  NoDup (map fst l) -> In (k, v) l -> aget l k = Some v.
Proof.
  induction l as [|[k0 v0] l IH]; cbn [aget In map fst]; intros ND H; [contradiction|].
  apply NoDup_cons_iff in ND as [Hnot ND'].
  destruct H as [[= -> ->]|H]; [rewrite N.eqb_refl; reflexivity|].
  destruct (N.eqb_spec k0 k) as [->|_]; [|exact (IH ND' H)].
  destruct (Hnot (in_map fst l (k, v) H)).
Qed.

Lemma adel_absent {V} (l : list (N * V)) k : aget l k = None -> adel l k = l.
Proof.
  induction l as [|[k0 v0] l IH]; cbn [aget adel]; [reflexivity|].
  destruct (k0 =? k); [discriminate|]. intros H. rewrite (IH H). reflexivity.
Qed.

Lemma NoDup_filter_fst {V} (P : N * V -> bool) (l : list (N * V)) :
  NoDup (map fst l) -> NoDup (map fst (filter P l)).
Proof.
  induction l as [|[k0 v0] l IH]; cbn [filter map fst]; intros ND; [exact ND|].
  apply NoDup_cons_iff in ND as [Hnot ND'].
  destruct (P (k0, v0)); [|exact (IH ND')].
  cbn [map fst]. constructor; [|exact (IH ND')].
  intros H. exact (Hnot (incl_map fst (incl_filter P l) k0 H)).
Qed.

Lemma adel_filter {V} (l : list (N * V)) k : adel l k = filter (fun kv => negb (fst kv =? k)) l.
Proof.
  induction l as [|[k0 v0] l IH]; cbn [adel filter fst]; [reflexivity|].
  destruct (k0 =? k); cbn [negb]; rewrite IH; reflexivity.
Qed.

Lemma NoDup_adel {V} (l : list (N * V)) k :
  NoDup (map fst l) -> NoDup (map fst (adel l k)).
Proof. rewrite adel_filter. apply NoDup_filter_fst. Qed.

Lemma aget_filter {V} (P : N * V -> bool) (l : list (N * V)) k :
  NoDup (map fst l) ->
  aget (filter P l) k
  = match aget l k with Some v => if P (k, v) then Some v else None | None => None end.
Proof.
  induction l as [|[k0 v0] l IH]; cbn [filter aget map fst]; intros ND; [reflexivity|].
  apply NoDup_cons_iff in ND as [Hnot ND']. specialize (IH ND').
  destruct (N.eqb_spec k0 k) as [->|E].
  - destruct (P (k, v0)); [cbn [aget]; rewrite N.eqb_refl; reflexivity|].
    rewrite IH, (proj2 (aget_None l k) Hnot). reflexivity.
  - destruct (P (k0, v0)); [|exact IH]. cbn [aget]. rewrite (proj2 (N.eqb_neq k0 k) E). exact IH.
Qed.

Lemma memN_In x l : memN x l = true <-> In x l.
Proof.
  induction l as [|y l IH]; cbn [memN In].
  - split; [discriminate|intros []].
  - rewrite orb_true_iff, N.eqb_eq, IH. reflexivity.
Qed.

Lemma memN_false x l : memN x l = false <-> ~ In x l.
Proof. rewrite <- memN_In. destruct (memN x l); split; congruence. Qed.

Lemma memN_insN x y l : memN x (insN y l) = (x =? y) || memN x l.
Proof.
  rewrite (N.eqb_sym x y). induction l as [|z l IH]; cbn [insN memN]; [reflexivity|].
  destruct (y <? z); [reflexivity|]. destruct (N.eqb_spec y z) as [<-|_]; cbn [memN].
  - destruct (y =? x); reflexivity.
  - rewrite IH. destruct (z =? x), (y =? x); reflexivity.
Qed.

Lemma memN_delN x y l : memN x (delN y l) = negb (x =? y) && memN x l.
Proof.
  induction l as [|z l IH]; cbn [delN memN]; [symmetry; apply andb_false_r|].
  destruct (N.eqb_spec z y) as [->|E]; cbn [memN]; rewrite IH.
  - rewrite (N.eqb_sym y x). destruct (x =? y); reflexivity.
  - destruct (N.eqb_spec z x) as [->|_]; [|reflexivity].
    rewrite (proj2 (N.eqb_neq x y) E). reflexivity.
Qed.

Lemma In_delN x y l : In x (delN y l) <-> x <> y /\ In x l.
Proof.
  rewrite <- !memN_In, memN_delN, andb_true_iff, negb_true_iff, N.eqb_neq. reflexivity.
Qed.

Lemma delN_notin k l : ~ In k l -> delN k l = l.
Proof.
  induction l as [|y l IH]; cbn [delN In]; intros H; [reflexivity|].
  destruct (N.eqb_spec y k) as [E|E]; [destruct H; left; exact E|].
  f_equal. apply IH. intros H1. apply H. right. exact H1.
Qed.

Lemma NoDup_snoc {A} (l : list A) x : NoDup l -> ~ In x l -> NoDup (l ++ [x]).
Proof.
  intros ND H. apply (NoDup_Add (Add_app x l [])). rewrite app_nil_r. exact (conj ND H).
Qed.

(** [sp_aliases_for s] is, by unfolding, [afor (s_assign s)], and [q_aliases_for c] is
    [qfor (p_index c)] below: the two on the bare lists, where [tracks] compares them *)
Definition afor (l : list (N * N)) (id : N) : list N :=
  map fst (filter (fun kv => snd kv =? id) l).

Lemma In_afor l id k : NoDup (map fst l) -> (In k (afor l id) <-> aget l k = Some id).
Proof.
  intros ND. unfold afor. rewrite in_map_iff. split.
  - intros [[k0 v0] [<- H]]. apply filter_In in H as [H E]. apply N.eqb_eq in E as <-.
    exact (In_aget l k0 v0 ND H).
  - intros H. exists (k, id). split; [reflexivity|]. apply filter_In.
    split; [exact (aget_Some_In l k id H)|apply N.eqb_refl].
Qed.

Lemma delN_afor l k id : NoDup (map fst l) -> aget l k <> Some id -> delN k (afor l id) = afor l id.
Proof. intros ND H. apply delN_notin. rewrite In_afor by exact ND. exact H. Qed.

Lemma afor_adel l k id : afor (adel l k) id = delN k (afor l id).
Proof.
  unfold afor. induction l as [|[k0 v0] l IH]; cbn [adel filter map snd]; [reflexivity|].
  destruct (N.eqb_spec k0 k) as [->|E].
  - destruct (v0 =? id); cbn [map fst delN]; rewrite ?N.eqb_refl; exact IH.
  - cbn [filter snd]. destruct (v0 =? id); cbn [map fst delN]; [|exact IH].
    rewrite (proj2 (N.eqb_neq k0 k) E), IH. reflexivity.
Qed.

Lemma afor_filter_neg l id id' :
  afor (filter (fun kv => negb (snd kv =? id)) l) id' = if id =? id' then [] else afor l id'.
Proof.
  unfold afor. induction l as [|[k0 v0] l IH]; cbn [filter map snd]; [destruct (id =? id'); reflexivity|].
  destruct (N.eqb_spec v0 id) as [->|E]; cbn [negb filter snd].
  - rewrite IH. destruct (id =? id'); reflexivity.
  - destruct (N.eqb_spec v0 id') as [->|_]; cbn [map fst]; [|exact IH].
    rewrite IH, (proj2 (N.eqb_neq id id')) by congruence. reflexivity.
Qed.

(** what [alias] does to the assignment list, whether or not the key was
    assigned before: drop the key, append the new assignment *)
Definition reassign (l : list (N * N)) (k id : N) : list (N * N) := adel l k ++ [(k, id)].

Lemma aget_reassign l k id k' : aget (reassign l k id) k' = if k =? k' then Some id else aget l k'.
Proof.
  unfold reassign. rewrite aget_app, aget_adel. cbn [aget].
  destruct (k =? k'); [reflexivity|]. destruct (aget l k'); reflexivity.
Qed.

Lemma afor_reassign l k id x :
  afor (reassign l k id) x = delN k (afor l x) ++ (if id =? x then [k] else []).
Proof.
  rewrite <- afor_adel. unfold reassign, afor. rewrite filter_app, map_app. cbn [filter snd].
  destruct (id =? x); reflexivity.
Qed.

Lemma NoDup_reassign l k id : NoDup (map fst l) -> NoDup (map fst (reassign l k id)).
Proof.
  intros I. unfold reassign. rewrite map_app. apply NoDup_snoc; [apply NoDup_adel; exact I|].
  apply aget_None. rewrite aget_adel, N.eqb_refl. reflexivity.
Qed.

Definition owned (al : list (N * N)) (id k : N) : bool :=
  match aget al k with Some o => o =? id | None => false end.

Lemma owned_true al id k : owned al id k = true <-> aget al k = Some id.
Proof. unfold owned. destruct (aget al k); [rewrite N.eqb_eq|]; split; congruence. Qed.

Definition spec_inv (s : pspec) : Prop := NoDup (map fst (s_assign s)).

Lemma spec_inv_empty : spec_inv pspec_empty.
Proof. constructor. Qed.

Lemma spec_alias_absent s id k :
  memN id (s_present s) = false -> sstep s (PAlias id k) = (s, PBool false).
Proof. intros H. cbn [sstep]. rewrite H. reflexivity. Qed.

Lemma sstep_alias s id k :
  memN id (s_present s) = true ->
  sstep s (PAlias id k)
  = (if owned (s_assign s) id k then s else mkPspec (s_present s) (reassign (s_assign s) k id),
     PBool true).
Proof.
  intros Hp. cbn [sstep]. rewrite Hp. unfold sp_lookup, owned, reassign. cbn [negb].
  destruct (aget (s_assign s) k) as [o|] eqn:E; [destruct (o =? id); reflexivity|].
  rewrite (adel_absent _ _ E). reflexivity.
Qed.

Lemma spec_inv_step s o : spec_inv s -> spec_inv (fst (sstep s o)).
Proof.
  unfold spec_inv. intros I. destruct o as [id|id|id key|]; try exact I.
  - apply NoDup_filter_fst. exact I.
  - destruct (memN id (s_present s)) eqn:Hp.
    + rewrite (sstep_alias s id key Hp). cbn [fst].
      destruct (owned (s_assign s) id key); [exact I|apply NoDup_reassign; exact I].
    + rewrite (spec_alias_absent s id key Hp). exact I.
Qed.

Lemma spec_inv_reachable ops : forall s,
  spec_inv s -> spec_inv (fold_left (fun s o => fst (sstep s o)) ops s).
Proof.
  induction ops as [|o ops IH]; intros s I; cbn [fold_left]; [exact I|].
  apply IH. apply spec_inv_step. exact I.
Qed.

Lemma lookup_after_alias s id k k' :
  memN id (s_present s) = true ->
  sp_lookup (fst (sstep s (PAlias id k))) k' = if k =? k' then Some id else sp_lookup s k'.
Proof.
  intros Hp. rewrite (sstep_alias s id k Hp). cbn [fst]. unfold sp_lookup.
  destruct (owned (s_assign s) id k) eqn:O; [|apply aget_reassign].
  apply owned_true in O. destruct (N.eqb_spec k k') as [<-|_]; [exact O|reflexivity].
Qed.

Lemma spec_remove_lookup s id k :
  spec_inv s ->
  sp_lookup (fst (sstep s (PRemove id))) k
  = match sp_lookup s k with
    | Some owner => if owner =? id then None else Some owner
    | None => None
    end.
Proof.
  intros I. cbn [sstep fst]. unfold sp_lookup. cbn [s_assign].
  rewrite aget_filter by exact I.
  destruct (aget (s_assign s) k) as [owner|]; [|reflexivity].
  cbn [snd]. destruct (owner =? id); reflexivity.
Qed.

Lemma aliases_after_alias s id k x :
  memN id (s_present s) = true -> sp_lookup s k <> Some id ->
  sp_aliases_for (fst (sstep s (PAlias id k))) x
  = delN k (sp_aliases_for s x) ++ (if id =? x then [k] else []).
Proof.
  intros Hp L. rewrite (sstep_alias s id k Hp).
  destruct (owned (s_assign s) id k) eqn:O; [apply owned_true in O; contradiction|].
  apply afor_reassign.
Qed.

Lemma spec_repoint s id id' k :
  spec_inv s -> sp_lookup s k = Some id -> id' <> id -> memN id' (s_present s) = true ->
  ~ In k (sp_aliases_for (fst (sstep s (PAlias id' k))) id) /\
  sp_aliases_for (fst (sstep s (PAlias id' k))) id'
  = sp_aliases_for s id' ++ [k].
Proof.
  intros I L Hne Hp. assert (L' : sp_lookup s k <> Some id') by congruence.
  rewrite !(aliases_after_alias s id' k _ Hp L'), N.eqb_refl, (proj2 (N.eqb_neq id' id) Hne), app_nil_r.
  split.
  - rewrite In_delN. intros [H _]. exact (H eq_refl).
  - f_equal. apply delN_afor; assumption.
Qed.

Definition qfor (idx : list (N * list N)) (id : N) : list N :=
  match aget idx id with Some ks => ks | None => [] end.

Lemma qfor_aset idx i v x : qfor (aset idx i v) x = if i =? x then v else qfor idx x.
Proof. unfold qfor. rewrite aget_aset. destruct (i =? x); reflexivity. Qed.

Lemma qfor_adel idx i x : qfor (adel idx i) x = if i =? x then [] else qfor idx x.
Proof. unfold qfor. rewrite aget_adel. destruct (i =? x); reflexivity. Qed.

Definition idx_unlink (idx : list (N * list N)) (prev key : N) : list (N * list N) :=
  match aget idx prev with
  | Some keys => aset idx prev (delN key keys)
  | None => idx
  end.

Lemma qfor_unlink idx prev key x :
  qfor (idx_unlink idx prev key) x = if prev =? x then delN key (qfor idx prev) else qfor idx x.
Proof.
  unfold idx_unlink. destruct (aget idx prev) as [ks|] eqn:E.
  - rewrite qfor_aset. unfold qfor at 2. rewrite E. reflexivity.
  - destruct (N.eqb_spec prev x) as [E1|E1]; [|reflexivity].
    subst x. unfold qfor. rewrite E. reflexivity.
Qed.

(** [alias] for a present peer, in the shape of [sstep_alias] *)
Lemma p_alias_eq c id key :
  memN id (p_peers c) = true ->
  p_alias c id key
  = (if owned (p_aliases c) id key then c else
       let idx1 := match aget (p_aliases c) key with
                   | Some prev => idx_unlink (p_index c) prev key
                   | None => p_index c
                   end in
       mkPreg (p_peers c) (aset (p_aliases c) key id) (aset idx1 id (qfor idx1 id ++ [key])),
     PBool true).
Proof.
  intros Hp. unfold p_alias, owned. rewrite Hp. cbn [negb].
  destruct (aget (p_aliases c) key) as [prev|]; [destruct (prev =? id)|]; reflexivity.
Qed.

Definition rm_step (id : N) (al : list (N * N)) (key : N) : list (N * N) :=
  match aget al key with
  | Some owner => if owner =? id then adel al key else al
  | None => al
  end.

(** a missing index entry is an empty one *)
Lemma p_remove_eq c id :
  p_remove c id
  = (mkPreg (delN id (p_peers c)) (fold_left (rm_step id) (qfor (p_index c) id) (p_aliases c))
            (adel (p_index c) id), PBool (memN id (p_peers c))).
Proof.
  unfold p_remove, qfor. destruct (aget (p_index c) id) eqn:E; [reflexivity|].
  rewrite (adel_absent _ _ E). reflexivity.
Qed.

Lemma rm_step_owned id al key : rm_step id al key = if owned al id key then adel al key else al.
Proof. unfold rm_step, owned. destruct (aget al key); reflexivity. Qed.

Lemma aget_rm_fold id keys : forall al k,
  aget (fold_left (rm_step id) keys al) k
  = if memN k keys && owned al id k then None else aget al k.
Proof.
  induction keys as [|k0 ks IH]; intros al k; cbn [fold_left memN]; [reflexivity|].
  rewrite IH, rm_step_owned. destruct (N.eqb_spec k0 k) as [->|E]; cbn [orb].
  - destruct (owned al id k) eqn:O; cbv iota; [|rewrite O, andb_false_r; reflexivity].
    unfold owned. rewrite aget_adel, N.eqb_refl, andb_false_r. reflexivity.
  - destruct (owned al id k0); [|reflexivity].
    unfold owned. rewrite aget_adel, (proj2 (N.eqb_neq k0 k) E). reflexivity.
Qed.

(** the forward map is compared by lookups only: [aset] replaces a key in
    place where the specification moves it to the end *)
Definition tracks (al : list (N * N)) (idx : list (N * list N)) (l : list (N * N)) : Prop :=
  (forall k, aget al k = aget l k) /\ (forall x, qfor idx x = afor l x) /\ NoDup (map fst l).

Definition R (c : preg) (s : pspec) : Prop :=
  p_peers c = s_present s /\ tracks (p_aliases c) (p_index c) (s_assign s).

Lemma R_empty : R preg_empty pspec_empty.
Proof. repeat split. constructor. Qed.

(** unlinking the key from its previous owner's entry, if it had one, leaves
    every entry as the list of the peer's keys without this key; appending the
    key to the new owner's entry then gives the lists of the new assignment *)
Lemma tracks_reassign al idx l key id :
  tracks al idx l ->
  let idx1 := match aget l key with Some prev => idx_unlink idx prev key | None => idx end in
  tracks (aset al key id) (aset idx1 id (qfor idx1 id ++ [key])) (reassign l key id).
Proof.
  intros (Hf & Hi & I) idx1.
  assert (Hi1 : forall x, qfor idx1 x = delN key (afor l x)).
  { intros x. subst idx1. destruct (aget l key) as [prev|] eqn:E.
    - rewrite qfor_unlink, !Hi. destruct (N.eqb_spec prev x) as [->|Hx]; [reflexivity|].
      symmetry. apply delN_afor; [exact I|]. congruence.
    - rewrite Hi. symmetry. apply delN_afor; [exact I|]. congruence. }
  split; [|split].
  - intros k. rewrite aget_aset, aget_reassign, Hf. reflexivity.
  - intros x. rewrite qfor_aset, afor_reassign, !Hi1.
    destruct (N.eqb_spec id x) as [<-|_]; [reflexivity|]. rewrite app_nil_r. reflexivity.
  - apply NoDup_reassign. exact I.
Qed.

(** the keys listed for [id] are exactly those it owns, so the fold drops
    exactly the assignments to [id] *)
Lemma tracks_remove al idx l id :
  tracks al idx l ->
  tracks (fold_left (rm_step id) (qfor idx id) al) (adel idx id)
         (filter (fun kv => negb (snd kv =? id)) l).
Proof.
  intros (Hf & Hi & I). split; [|split].
  - intros k. rewrite aget_rm_fold, aget_filter by exact I. unfold owned. rewrite Hf.
    destruct (aget l k) as [o|] eqn:E; [|rewrite andb_false_r; reflexivity].
    cbn [snd]. destruct (N.eqb_spec o id) as [->|_]; cbn [negb]; [|rewrite andb_false_r; reflexivity].
    rewrite (proj2 (memN_In k _)); [reflexivity|]. rewrite Hi. apply In_afor; assumption.
  - intros x. rewrite qfor_adel, afor_filter_neg, Hi. reflexivity.
  - apply NoDup_filter_fst. exact I.
Qed.

Lemma step_sim c s o :
  R c s -> snd (pstep c o) = snd (sstep s o) /\ R (fst (pstep c o)) (fst (sstep s o)).
Proof.
  intros HR. pose proof HR as [Hp Ht]. destruct o as [id|id|id key|]; cbn [pstep].
  - split; [reflexivity|]. split; [cbn [sstep fst p_peers s_present]; rewrite Hp; reflexivity|exact Ht].
  - rewrite p_remove_eq. cbn [sstep fst snd]. rewrite Hp. split; [reflexivity|].
    split; [reflexivity|]. apply tracks_remove. exact Ht.
  - destruct (memN id (s_present s)) eqn:Hm.
    + rewrite p_alias_eq by (rewrite Hp; exact Hm). rewrite (sstep_alias s id key Hm).
      unfold owned. rewrite (proj1 Ht key). fold (owned (s_assign s) id key).
      destruct (owned (s_assign s) id key); cbn [fst snd]; (split; [reflexivity|]); [exact HR|].
      split; [exact Hp|]. exact (tracks_reassign _ _ _ key id Ht).
    + rewrite (spec_alias_absent s id key Hm). unfold p_alias. rewrite Hp, Hm.
      split; [reflexivity|exact HR].
  - cbn [sstep fst snd]. rewrite Hp. split; [reflexivity|exact HR].
Qed.

Lemma observe_sim ids keys r c s : R c s -> observe ids keys r c = sobserve ids keys r s.
Proof.
  intros (Hp & Hf & Hi & _). unfold observe, sobserve. f_equal.
  - unfold q_len. rewrite Hp. reflexivity.
  - apply map_ext. intros id. unfold q_get. rewrite Hp. reflexivity.
  - apply map_ext. intros k. unfold q_get_by, sp_lookup. rewrite Hf, Hp. reflexivity.
  - apply map_ext. exact Hi.
  - apply map_ext. intros id. unfold q_key_for. rewrite (Hi id : q_aliases_for c id = _). reflexivity.
Qed.

Lemma trace_sim ids keys ops : forall c s,
  R c s -> ptrace ids keys c ops = strace ids keys s ops.
Proof.
  induction ops as [|o ops IH]; intros c s HR; cbn [ptrace strace]; [reflexivity|].
  destruct (step_sim c s o HR) as [Ho HR'].
  destruct (pstep c o) as [c' r]. destruct (sstep s o) as [s' r'].
  cbn [fst snd] in Ho, HR'. subst r'.
  rewrite (observe_sim ids keys r c' s' HR'), (IH c' s' HR'). reflexivity.
Qed.

Lemma model_refines_spec ids keys ops : model_C18 ids keys ops = spec_C18 ids keys ops.
Proof. unfold model_C18, spec_C18. apply trace_sim. exact R_empty. Qed.

Lemma listN_eqb_refl l : listN_eqb l l = true.
Proof. induction l as [|x l IH]; cbn [listN_eqb]; [reflexivity|]. rewrite N.eqb_refl, IH. reflexivity. Qed.

Lemma list_eqb_refl {A} (eqb : A -> A -> bool) :
  (forall x, eqb x x = true) -> forall l, list_eqb eqb l l = true.
Proof. intros H l. induction l as [|x l IH]; cbn [list_eqb]; [reflexivity|]. rewrite H, IH. reflexivity. Qed.

Lemma optN_eqb'_refl a : optN_eqb' a a = true.
Proof. destruct a; cbn [optN_eqb']; [apply N.eqb_refl|reflexivity]. Qed.

Lemma pout_eqb_refl a : pout_eqb a a = true.
Proof. destruct a; cbn [pout_eqb]; [reflexivity|apply Bool.eqb_reflx|apply listN_eqb_refl]. Qed.

Lemma pobs_eqb_refl a : pobs_eqb a a = true.
Proof.
  unfold pobs_eqb.
  rewrite pout_eqb_refl, N.eqb_refl, (list_eqb_refl Bool.eqb Bool.eqb_reflx),
    !(list_eqb_refl optN_eqb' optN_eqb'_refl), (list_eqb_refl listN_eqb listN_eqb_refl).
  reflexivity.
Qed.

Lemma ok_model_C18 ids keys ops : ok_C18 ids keys ops (model_C18 ids keys ops) = true.
Proof.
  unfold ok_C18. rewrite model_refines_spec. apply list_eqb_refl. exact pobs_eqb_refl.
Qed.
