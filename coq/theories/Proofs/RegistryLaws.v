(** The readable laws, stated on the model of the code ([dispatch], [route],
    [register_function]): read-your-write, frame, root merge, empty bodies
    never mutate, calls happen exactly once at the escape-normalised pointer,
    malformed pointers, the mount, the public pointer functions. *)
From RepeV Require Import Model.Json Model.Registry Proofs.JsonProofs Proofs.PointerProofs Proofs.RegistryProofs.

Lemma parse_pointer_nil_root p : parse_pointer p = Ok [] -> is_root_ptr p = true.
Proof.
  unfold parse_pointer. destruct (is_root_ptr p) eqn:R; [reflexivity|].
  destruct p as [|c rest]; [discriminate R|]. destruct (c =? SLASH); [|discriminate].
  pose proof (split_on_nonempty SLASH rest). destruct (split_on SLASH rest) as [|t ts]; [contradiction|].
  cbn [map collect_opt]. destruct (unescape_token t); [destruct (collect_opt _)|]; discriminate.
Qed.

(** inversion of a write answered Ok with no call: the pointer parsed, found no callable,
    and, unless it was a root write, the new state is [set_ptr] on the root *)
Lemma dispatch_stored st p v st' j :
  dispatch st p (Some v) = (st', ROk j, []) ->
  exists segs, parse_pointer p = Ok segs /\ fget (r_funs st) (canonical_pointer segs) = None /\
    match segs with
    | [] => True
    | _ => exists r', set_ptr (r_root st) segs v = Ok r' /\ st' = mkR r' (r_funs st)
    end.
Proof.
  unfold dispatch. rewrite canonical_key_agrees. destruct (parse_pointer p) as [segs|] eqn:P; [|discriminate].
  unfold dispatch_decided. destruct (fget _ _) eqn:F; [discriminate|]. unfold dispatch_write. rewrite P.
  intros H. exists segs. repeat split; [exact F|]. destruct segs as [|s segs]; [exact I|].
  destruct (set_ptr _ _ _) as [r'|]; [|discriminate]. exists r'. now injection H as <-.
Qed.

Lemma dispatch_read_your_write st p v st' j :
  is_root_ptr p = false ->
  dispatch st p (Some v) = (st', ROk j, []) ->
  dispatch st' p None = (st', ROk v, []).
Proof.
  intros Hr H. destruct (dispatch_stored _ _ _ _ _ H) as [[|s segs] [P [F W]]];
    [apply parse_pointer_nil_root in P; congruence|].
  destruct W as [r' [S ->]]. unfold dispatch. rewrite canonical_key_agrees, P. cbn [r_funs r_root].
  rewrite F, (set_ptr_resolve_same (s :: segs) (r_root st) v r'); [reflexivity|discriminate|exact S].
Qed.

(** frame: the answer at a diverging pointer stays, the variant of an error included *)
Lemma dispatch_write_frame_exact st p v st' j q pt qt :
  dispatch st p (Some v) = (st', ROk j, []) ->
  parse_pointer p = Ok pt -> parse_pointer q = Ok qt ->
  diverge (r_root st) pt qt ->
  snd (fst (dispatch st' q None)) = snd (fst (dispatch st q None)).
Proof.
  intros H Pp Pq D. destruct (dispatch_stored _ _ _ _ _ H) as [pt' [P [_ W]]]. rewrite Pp in P. injection P as <-.
  destruct pt as [|t pt]; [destruct D|]. destruct W as [r' [S ->]].
  unfold dispatch. rewrite canonical_key_agrees, Pq. cbn [r_funs r_root]. destruct (fget (r_funs st) _); [reflexivity|].
  cbn [fst snd]. now rewrite (set_ptr_resolve_frame (t :: pt) (r_root st) qt v r' S D).
Qed.

(** a request never changes the function table *)
Lemma dispatch_funs st p b : r_funs (fst (fst (dispatch st p b))) = r_funs st.
Proof.
  unfold dispatch. destruct (canonical_key p); [|reflexivity].
  destruct b as [v|]; [|destruct (fget _ _); [|destruct (parse_pointer p)]; reflexivity].
  unfold dispatch_decided. destruct (fget _ _); [reflexivity|]. unfold dispatch_write.
  destruct (parse_pointer p) as [[|s segs]|]; try reflexivity; [destruct v|destruct (set_ptr _ _ _)]; reflexivity.
Qed.

(** the root: no callable can be registered there, a write merges *)
Definition no_root_fun (st : rstate) : Prop := fget (r_funs st) [SLASH] = None.

Lemma rstep_no_root_fun prefix st o : no_root_fun st -> no_root_fun (fst (fst (rstep prefix st o))).
Proof.
  unfold no_root_fun. intros H.
  destruct o as [p v|p fid|v|ob|p ob|p|p b|path b]; cbn [rstep nolog fst snd]; try exact H.
  - unfold register_value. destruct (parse_registration_path p) as [[|s segs]|]; exact H.
  - unfold register_function. destruct (parse_registration_path p) as [[|s segs]|] eqn:P; try exact H.
    cbn [fst r_funs]. rewrite fget_fset. change [SLASH] with (canonical_pointer []).
    rewrite canonical_pointer_eqb; [exact H| |discriminate].
    exact (parse_registration_not_single_empty p _ P).
  - unfold merge_at. destruct (parse_registration_path p) as [[|s segs]|]; try exact H.
    cbn [fst]. destruct (merge_ptr _ _ _); exact H.
  - now rewrite dispatch_funs.
  - unfold route. destruct prefix as [pre|]; [|exact H].
    destruct (negb _); [exact H|]. destruct (pointer_for _ _); [|exact H].
    destruct (decode_body b); [|exact H]. now rewrite dispatch_funs.
Qed.

Lemma reachable_no_root_fun prefix ops : forall st,
  no_root_fun st -> no_root_fun (fold_left (fun s o => fst (fst (rstep prefix s o))) ops st).
Proof.
  induction ops as [|o ops IH]; intros st H; [exact H|]. cbn [fold_left]. apply IH. now apply rstep_no_root_fun.
Qed.

Lemma dispatch_root_write st p v :
  no_root_fun st -> is_root_ptr p = true ->
  dispatch st p (Some v) =
  match v with
  | JObj o => (mkR (JObj (omerge (obj_of (r_root st)) o)) (r_funs st), ROk (write_ok [SLASH]), [])
  | _ => (st, RErr ERootNotObject, [])
  end.
Proof.
  intros Hn Hr. unfold dispatch, canonical_key. rewrite Hr. unfold dispatch_decided. rewrite Hn.
  unfold dispatch_write, parse_pointer. now rewrite Hr.
Qed.

Lemma dispatch_read_pure st p : fst (fst (dispatch st p None)) = st /\ snd (dispatch st p None) = [].
Proof.
  unfold dispatch. destruct (canonical_key p); [destruct (fget _ _); [|destruct (parse_pointer p)]|]; split; reflexivity.
Qed.

Lemma route_read_pure pre st path b :
  decode_body b = Ok None ->
  fst (fst (route pre st path b)) = st /\ snd (route pre st path b) = [].
Proof.
  intros Hb. unfold route. destruct pre as [pre|]; [|split; reflexivity].
  destruct (negb _); [split; reflexivity|]. destruct (pointer_for _ _); [|split; reflexivity].
  rewrite Hb. apply dispatch_read_pure.
Qed.

Definition callable_at (st : rstate) (p : str) : option N :=
  match parse_pointer p with
  | Ok segs => fget (r_funs st) (canonical_pointer segs)
  | Err _ => None
  end.

Lemma dispatch_calls st p body :
  match body, callable_at st p with
  | Some arg, Some fid => dispatch st p body = (st, fun_out fid arg, [(fid, arg)])
  | _, _ => snd (dispatch st p body) = []
  end.
Proof.
  unfold callable_at, dispatch. rewrite canonical_key_agrees.
  destruct (parse_pointer p) as [segs|] eqn:P; [|destruct body; reflexivity].
  destruct body as [arg|]; [|destruct (fget _ _); reflexivity].
  unfold dispatch_decided. destruct (fget _ _); [reflexivity|]. unfold dispatch_write. rewrite P.
  destruct segs; [destruct arg; reflexivity|destruct (set_ptr _ _ _); reflexivity].
Qed.

Lemma register_function_callable st path fid st' segs :
  register_function st path fid = (st', RUnit) -> parse_registration_path path = Ok segs ->
  forall p segs', parse_pointer p = Ok segs' ->
  callable_at st' p = if path_eqb segs segs' then Some fid else callable_at st p.
Proof.
  intros H P p segs' Pp. unfold register_function in H. rewrite P in H.
  destruct segs as [|s segs0]; [discriminate|]. injection H as <-.
  unfold callable_at. rewrite Pp. cbn [r_funs]. rewrite fget_fset.
  change (SLASH :: _) with (canonical_pointer (s :: segs0)).
  rewrite canonical_pointer_eqb; [reflexivity| |exact (parse_pointer_not_single_empty _ _ Pp)].
  exact (parse_registration_not_single_empty _ _ P).
Qed.

Definition malformed (p : str) : Prop :=
  p <> [] /\ (starts_with SLASH p = false \/ exists t, In t (split_on SLASH (tl p)) /\ esc_wf t = false).

Lemma sp_untoken_none t : sp_untoken t = None <-> esc_wf t = false.
Proof. unfold sp_untoken. destruct (esc_wf t); split; congruence. Qed.

Lemma sp_decode_none_iff p : sp_decode p = None <-> malformed p.
Proof.
  unfold sp_decode, malformed. destruct p as [|c rest]; [split; [discriminate|now intros [[] _]]|].
  cbn [starts_with tl]. destruct (c =? SLASH); [|split; [split; [discriminate|now left]|reflexivity]].
  destruct rest as [|x rest'].
  - split; [discriminate|]. intros [_ [H|[t [[<-|[]] H]]]]; discriminate.
  - rewrite collect_opt_none, in_map_iff. split.
    + intros [t [F Ht]]. split; [discriminate|right]. exists t. split; [exact Ht|now apply sp_untoken_none].
    + intros [_ [H|[t [Ht F]]]]; [discriminate|]. exists t. split; [now apply sp_untoken_none|exact Ht].
Qed.

Lemma malformed_rejected st p :
  malformed p ->
  (forall body, dispatch st p body = (st, RErr EInvalidPointer, [])) /\
  read_value st p = RErr EInvalidPointer /\
  err_code EInvalidPointer = METHOD_NOT_FOUND.
Proof.
  intros M. apply sp_decode_none_iff in M.
  assert (P : parse_pointer p = Err EInvalidPointer) by (rewrite parse_pointer_spec, M; reflexivity).
  repeat split; [intros body; unfold dispatch; now rewrite canonical_key_agrees, P|unfold read_value; now rewrite P].
Qed.

Lemma dispatch_read_error_class st p st' e lg :
  dispatch st p None = (st', RErr e, lg) -> err_code e = METHOD_NOT_FOUND.
Proof.
  unfold dispatch. rewrite canonical_key_agrees, parse_pointer_spec.
  destruct (sp_decode p) as [path|]; [|intros [= _ <- _]; reflexivity].
  destruct (fget _ _); [discriminate|]. destruct (resolve (r_root st) path) eqn:R; [discriminate|].
  intros [= _ <- _]. exact (resolve_nf _ _ _ R).
Qed.

Lemma sp_mount_rest_app np path rest : sp_mount_rest np path = Some rest -> path = np ++ rest.
Proof.
  unfold sp_mount_rest. destruct np as [|a np]; [intros [= ->]; reflexivity|].
  destruct (strip_pre (a :: np) path) as [r|] eqn:S; [|discriminate].
  destruct (_ || _); [|discriminate]. intros [= ->]. now apply strip_pre_spec.
Qed.

Lemma sp_mount_rest_below np rest :
  np <> [] -> rest = [] \/ starts_with SLASH rest = true -> sp_mount_rest np (np ++ rest) = Some rest.
Proof.
  intros Hn Hr. unfold sp_mount_rest. destruct np as [|a np]; [contradiction|].
  rewrite (proj2 (strip_pre_spec (a :: np) _ rest) eq_refl).
  destruct Hr as [E | E]; rewrite E; [reflexivity|now rewrite orb_true_r].
Qed.

Lemma sp_mount_rest_not_below np path :
  np <> [] -> (forall rest, path = np ++ rest -> rest <> [] /\ starts_with SLASH rest = false) ->
  sp_mount_rest np path = None.
Proof.
  intros Hn H. unfold sp_mount_rest. destruct np as [|a np]; [contradiction|].
  destruct (strip_pre (a :: np) path) as [r|] eqn:S; [|reflexivity].
  apply strip_pre_spec in S. destruct (H r S) as [H1 H2]. rewrite H2.
  destruct r as [|x [|y r]]; [contradiction| |reflexivity].
  cbn [is_root_ptr]. cbn [starts_with] in H2. now rewrite H2.
Qed.

(** the public pointer functions of json_pointer.rs agree with the
    registry's on every well-formed pointer other than "/" *)
Lemma jp_parse_rfc p path : rfc_decode p = Some path -> jp_parse p = path.
Proof.
  unfold rfc_decode, jp_parse. destruct p as [|c rest]; [now intros [= <-]|].
  destruct (c =? SLASH); [|discriminate]. intros H. symmetry. exact (collect_opt_map_if esc_wf _ _ _ H).
Qed.

Lemma jp_eval_agrees st p path :
  sp_decode p = Some path -> is_root_ptr p = false ->
  obs_out (read_value st p) = match jp_eval (r_root st) p with Some v => OOk v | None => OErr METHOD_NOT_FOUND end.
Proof.
  intros D Hr. unfold read_value, jp_eval. rewrite parse_pointer_spec, D, (jp_parse_rfc p path); [apply obs_resolve|].
  (* but for "/", the two decodings are the same function *)
  destruct p as [|c [|x rest]]; [discriminate| |exact D]. cbn [is_root_ptr] in Hr. cbn [sp_decode] in D.
  rewrite Hr in D. discriminate.
Qed.

Lemma jp_ok d p : ok_jp d p (jp_parse p) (jp_eval d p) = true.
Proof.
  unfold ok_jp, jp_eval. destruct (rfc_decode p) as [path|] eqn:D; [|reflexivity].
  rewrite (jp_parse_rfc p path D). apply andb_true_iff. split.
  - now destruct (leqb_spec str_eqb str_eqb_spec path path).
  - destruct (sp_get d path); [apply json_eqb_refl|reflexivity].
Qed.

(** the oracle pins the tokens: whatever it accepts on an RFC pointer is the
    RFC tokenisation, in which "/" is the single empty token *)
Lemma jp_ok_pins d p toks ev path :
  rfc_decode p = Some path -> ok_jp d p toks ev = true -> toks = path /\ ev = sp_get d path.
Proof.
  intros D H. unfold ok_jp in H. rewrite D in H. apply andb_true_iff in H as [H1 H2].
  split; [now destruct (leqb_spec str_eqb str_eqb_spec toks path)|].
  destruct ev as [a|], (sp_get d path) as [b|]; try discriminate; [|reflexivity].
  cbn [opt_json_eqb] in H2. now destruct (json_eqb_spec a b) as [->|].
Qed.
