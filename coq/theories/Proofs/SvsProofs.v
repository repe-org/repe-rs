(** Proofs about the value-stream model (C09): the sink cuts every write
    segmentation of a byte stream into [chunks_of]; the lookahead session
    delivers every chunk once, in order, marks exactly the final one, and turns
    a producer failure into an error; reassembly returns the stream. *)
From RepeV Require Import Model.Svs.

Local Open Scope nat_scope.

Lemma bytes_eqb_refl l : bytes_eqb l l = true.
Proof. induction l as [|x l IH]; cbn [bytes_eqb]; [reflexivity|]. rewrite IH, N.eqb_refl. reflexivity. Qed.

Lemma bytes_eqb_eq a b : bytes_eqb a b = true -> a = b.
Proof.
  revert b; induction a as [|x a IH]; intros [|y b] H; cbn [bytes_eqb] in H; try discriminate; [reflexivity|].
  apply andb_true_iff in H. destruct H as [H1 H2]. apply N.eqb_eq in H1. f_equal; [exact H1|exact (IH _ H2)].
Qed.

Lemma starts_with_app p l : starts_with p (p ++ l) = true.
Proof. induction p as [|x p IH]; cbn [starts_with app]; [reflexivity|]. rewrite IH, N.eqb_refl. reflexivity. Qed.

Lemma starts_with_refl l : starts_with l l = true.
Proof. pose proof (starts_with_app l []) as H. now rewrite app_nil_r in H. Qed.

Lemma starts_with_prefix p l : starts_with p l = true -> exists r, l = p ++ r.
Proof.
  revert l; induction p as [|x p IH]; intros l H; [exists l; reflexivity|].
  destruct l as [|y l]; cbn [starts_with] in H; [discriminate|].
  apply andb_true_iff in H. destruct H as [H1 H2]. apply N.eqb_eq in H1. subst y.
  destruct (IH _ H2) as [r ->]. exists r. reflexivity.
Qed.

(** the shape "every chunk has exactly [n] bytes, except a non-empty last one
    of at most [n]" *)
Fixpoint chunking (n : nat) (cs : list chunk) : Prop :=
  match cs with
  | [] => True
  | c :: cs' => match cs' with
                | [] => 0 < length c <= n
                | _ :: _ => length c = n /\ chunking n cs'
                end
  end.

Lemma chunking_full n a cs : 0 < n -> length a = n -> chunking n cs -> chunking n (a :: cs).
Proof. intros Hn Ha H. destruct cs; cbn [chunking]; [rewrite Ha; split; [exact Hn|apply le_n]|split; assumption]. Qed.

(** no chunk is empty, so there are at most as many chunks as bytes *)
Lemma chunking_length n cs : 0 < n -> chunking n cs -> length cs <= length (concat cs).
Proof.
  intros Hn. induction cs as [|c cs IH]; intros H; [reflexivity|].
  cbn [concat length]. rewrite app_length. cbn [chunking] in H. destruct cs as [|c2 cs].
  - cbn [length]. rewrite Nat.add_0_r. apply H.
  - destruct H as [-> H]. exact (Nat.add_le_mono 1 n _ _ Hn (IH H)).
Qed.

Lemma chunks_fuel_nil f n : chunks_of_fuel f n [] = [].
Proof. now destruct f. Qed.

Lemma chunks_fuel_step f n l : 0 < length l ->
  chunks_of_fuel (S f) n l = firstn n l :: chunks_of_fuel f n (skipn n l).
Proof. destruct l; [intros H; inversion H|reflexivity]. Qed.

Lemma chunks_fuel_spec n : 0 < n -> forall f l, length l <= f ->
  concat (chunks_of_fuel f n l) = l /\ chunking n (chunks_of_fuel f n l).
Proof.
  intros Hn f; induction f as [|f IH]; intros l Hl.
  - destruct l; [split; [reflexivity|exact I]|inversion Hl].
  - destruct (Nat.eq_0_gt_0_cases (length l)) as [H0|H0].
    + destruct l; [split; [reflexivity|exact I]|discriminate].
    + rewrite chunks_fuel_step by exact H0. cbn [concat].
      destruct (Nat.le_gt_cases (length l) n) as [Hs|Hs].
      * rewrite firstn_all2, skipn_all2, chunks_fuel_nil by exact Hs.
        split; [apply app_nil_r|]. cbn [chunking]. split; assumption.
      * destruct (IH (skipn n l)) as [C S].
        { rewrite skipn_length. apply Nat.le_sub_le_add_l. exact (Nat.le_trans _ _ _ Hl (proj1 (Nat.add_le_mono_r 1 n f) Hn)). }
        split; [rewrite C; apply firstn_skipn|].
        apply chunking_full; [exact Hn|rewrite firstn_length; apply Nat.min_l, Nat.lt_le_incl, Hs|exact S].
Qed.

Lemma chunking_fuel_unique n : 0 < n -> forall cs f, chunking n cs -> length (concat cs) <= f ->
  chunks_of_fuel f n (concat cs) = cs.
Proof.
  intros Hn cs; induction cs as [|c cs IH]; intros f H Hf; [apply chunks_fuel_nil|].
  cbn [concat] in *. cbn [chunking] in H.
  assert (Hc : 0 < length c <= n) by (destruct cs; [exact H|rewrite (proj1 H); split; [exact Hn|apply le_n]]).
  assert (Hp : 0 < length (c ++ concat cs)) by (rewrite app_length; apply Nat.lt_lt_add_r, Hc).
  destruct f as [|f]; [destruct (Nat.lt_irrefl _ (Nat.lt_le_trans _ _ _ Hp Hf))|].
  rewrite chunks_fuel_step by exact Hp. destruct cs as [|c2 cs].
  - cbn [concat]. rewrite app_nil_r, firstn_all2, skipn_all2, chunks_fuel_nil by apply Hc. reflexivity.
  - destruct H as [<- H]. rewrite firstn_app_exact, skipn_app_exact, IH; [reflexivity|exact H|].
    rewrite app_length in Hf. exact (proj2 (Nat.succ_le_mono _ _) (Nat.le_trans _ _ _ (proj1 (Nat.add_le_mono_r 1 _ _) Hn) Hf)).
Qed.

Theorem chunks_of_spec n l : 0 < n -> concat (chunks_of n l) = l /\ chunking n (chunks_of n l).
Proof. intros Hn. exact (chunks_fuel_spec n Hn _ l (le_n _)). Qed.

Theorem chunking_unique n : 0 < n -> forall cs, chunking n cs -> cs = chunks_of n (concat cs).
Proof. intros Hn cs H. symmetry. exact (chunking_fuel_unique n Hn cs _ H (le_n _)). Qed.

Lemma chunks_of_nil n : chunks_of n [] = [].
Proof. reflexivity. Qed.

(** [chunks_of] without its fuel: the one cutting of [l] that has the shape *)
Theorem chunks_of_iff n l cs : 0 < n -> chunks_of n l = cs <-> concat cs = l /\ chunking n cs.
Proof.
  intros Hn. split; [intros <-; exact (chunks_of_spec n l Hn)|].
  intros [<- H]. symmetry. exact (chunking_unique n Hn cs H).
Qed.

Lemma chunks_of_short n l : 0 < length l <= n -> chunks_of n l = [l].
Proof.
  intros H. apply chunks_of_iff; [exact (Nat.lt_le_trans _ _ _ (proj1 H) (proj2 H))|].
  split; [apply app_nil_r|exact H].
Qed.

Lemma chunks_of_full n a l : 0 < n -> length a = n -> chunks_of n (a ++ l) = a :: chunks_of n l.
Proof.
  intros Hn Ha. apply chunks_of_iff; [exact Hn|]. destruct (chunks_of_spec n l Hn) as [C S].
  split; [cbn [concat]; now rewrite C|exact (chunking_full n a _ Hn Ha S)].
Qed.

(** what [flush_remaining] sends for the bytes [r] left in the buffer: a short chunk, or nothing *)
Definition tailc (r : list byte) : list chunk := match r with [] => [] | _ :: _ => [r] end.

Lemma concat_tailc cs r : concat (cs ++ tailc r) = concat cs ++ r.
Proof. rewrite concat_app. destruct r; cbn [tailc concat]; now rewrite ?app_nil_r. Qed.

Lemma sink_bytes_spec n : 0 < n -> forall data buf, length buf < n ->
  length (snd (sink_bytes n buf data)) < n /\
  chunks_of n (buf ++ data) = fst (sink_bytes n buf data) ++ tailc (snd (sink_bytes n buf data)).
Proof.
  intros Hn data; induction data as [|b data IH]; intros buf Hb; cbn [sink_bytes].
  - rewrite app_nil_r. split; [exact Hb|].
    destruct buf; [reflexivity|]. apply chunks_of_short. split; [apply Nat.lt_0_succ|apply Nat.lt_le_incl, Hb].
  - replace (buf ++ b :: data) with ((buf ++ [b]) ++ data) by (now rewrite <- app_assoc).
    pose proof (last_length buf b) as Hl.
    destruct (Nat.leb_spec n (length (buf ++ [b]))) as [E|E]; [|exact (IH _ E)].
    destruct (IH [] Hn) as [I1 I2]. destruct (sink_bytes n [] data) as [cs r].
    split; [exact I1|]. cbn [fst snd app] in *.
    rewrite chunks_of_full, I2; [reflexivity|exact Hn|].
    apply Nat.le_antisymm; [rewrite Hl; exact Hb|exact E].
Qed.

Lemma sink_bytes_app n a : forall b buf,
  sink_bytes n buf (a ++ b) =
  (fst (sink_bytes n buf a) ++ fst (sink_bytes n (snd (sink_bytes n buf a)) b),
   snd (sink_bytes n (snd (sink_bytes n buf a)) b)).
Proof.
  induction a as [|x a IH]; intros b buf.
  - cbn [app sink_bytes fst snd]. now destruct (sink_bytes n buf b).
  - cbn [app sink_bytes]. destruct (n <=? length (buf ++ [x])).
    + rewrite IH. destruct (sink_bytes n [] a) as [cs r]. cbn [fst snd]. reflexivity.
    + apply IH.
Qed.

Lemma sink_bytes_writes_concat n ws : forall buf,
  sink_bytes_writes n buf ws = sink_bytes n buf (concat ws).
Proof.
  induction ws as [|w ws IH]; intros buf; [reflexivity|].
  cbn [sink_bytes_writes concat]. rewrite sink_bytes_app.
  destruct (sink_bytes n buf w) as [cs b]. cbn [fst snd]. rewrite IH.
  now destruct (sink_bytes n b (concat ws)).
Qed.

(** bytes that still fit into the buffer: they are appended, and sent if they fill it.
    This is one round of the loop of [ChunkSink::write]. *)
Lemma sink_bytes_take n a : forall buf b, length buf < n -> length buf + length a <= n ->
  sink_bytes n buf (a ++ b) =
  if n <=? length (buf ++ a)
  then let (cs, r) := sink_bytes n [] b in ((buf ++ a) :: cs, r)
  else sink_bytes n (buf ++ a) b.
Proof.
  induction a as [|x a IH]; intros buf b Hb H.
  - rewrite app_nil_r. cbn [app]. now rewrite (proj2 (Nat.leb_gt _ _) Hb).
  - destruct a as [|y a]; [reflexivity|].
    assert (E : length (buf ++ [x]) < n /\ length (buf ++ [x]) + length (y :: a) <= n)
      by (rewrite last_length; cbn [length] in *; lia).
    change ((x :: y :: a) ++ b) with (x :: (y :: a) ++ b). cbn [sink_bytes].
    rewrite (proj2 (Nat.leb_gt _ _) (proj1 E)), IH, <- app_assoc by apply E. reflexivity.
Qed.

(** one round of the loop of [ChunkSink::write] with [b] bytes buffered and [d] to come takes [t]
    of them: they fit into the buffer, and fewer are left.  (Spelt out with the lemmas on [min],
    so that no arithmetic over [min] is left to [lia].) *)
Lemma take_bounds n b d f : b < n -> 0 < d <= f ->
  let t := Nat.min (n - b) d in d - t < f /\ b + Nat.min t d <= n.
Proof.
  intros Hb [Hd Hf] t. split.
  - apply (Nat.lt_le_trans _ d); [|exact Hf].
    apply Nat.sub_lt; [apply Nat.le_min_r|apply Nat.min_glb_lt; [apply Nat.lt_add_lt_sub_r, Hb|exact Hd]].
  - rewrite <- (Nat.sub_add b n), (Nat.add_comm b) by apply Nat.lt_le_incl, Hb.
    apply Nat.add_le_mono_r. exact (Nat.le_trans _ _ _ (Nat.le_min_l _ _) (Nat.le_min_l _ _)).
Qed.

Lemma sink_write_bytes n : 0 < n -> forall fuel data buf, length buf < n -> length data < fuel ->
  sink_write fuel n buf data = sink_bytes n buf data.
Proof.
  intros Hn fuel; induction fuel as [|f IH]; intros data buf Hb Hf; [inversion Hf|].
  destruct data as [|d ds]; [reflexivity|]. cbn [sink_write].
  set (data := d :: ds) in *. set (take := Nat.min (n - length buf) (length data)).
  destruct (take_bounds n _ (length data) f Hb (conj (Nat.lt_0_succ _) (proj1 (Nat.lt_succ_r _ _) Hf))) as [Hs Ht].
  fold take in Hs, Ht. rewrite <- skipn_length in Hs. rewrite <- firstn_length in Ht.
  pose proof (sink_bytes_take n (firstn take data) buf (skipn take data) Hb Ht) as T.
  rewrite firstn_skipn in T. rewrite T.
  destruct (Nat.leb_spec n (length (buf ++ firstn take data))) as [E|E]; now rewrite IH.
Qed.

Lemma sink_writes_bytes n : 0 < n -> forall ws buf, length buf < n ->
  sink_writes n buf ws = sink_bytes n buf (concat ws).
Proof.
  intros Hn ws; induction ws as [|w ws IH]; intros buf Hb; [reflexivity|].
  cbn [sink_writes concat]. rewrite sink_write_bytes, sink_bytes_app by (try assumption; apply Nat.lt_succ_diag_r).
  destruct (sink_bytes_spec n Hn w buf Hb) as [Hr _].
  destruct (sink_bytes n buf w) as [cs b]. cbn [fst snd] in *. rewrite IH by exact Hr.
  now destruct (sink_bytes n b (concat ws)).
Qed.

Theorem sink_writes_chunks n ws : 0 < n ->
  fst (sink_writes n [] ws) ++ tailc (snd (sink_writes n [] ws)) = chunks_of n (concat ws) /\
  length (snd (sink_writes n [] ws)) < n.
Proof.
  intros Hn. rewrite sink_writes_bytes by exact Hn.
  destruct (sink_bytes_spec n Hn (concat ws) [] Hn) as [H1 H2]. split; [symmetry; exact H2|exact H1].
Qed.

Lemma sink_full_chunks_prefix n ws : 0 < n ->
  concat ws = concat (fst (sink_writes n [] ws)) ++ snd (sink_writes n [] ws).
Proof.
  intros Hn. rewrite <- concat_tailc, (proj1 (sink_writes_chunks n ws Hn)).
  symmetry. exact (proj1 (chunks_of_spec n _ Hn)).
Qed.

Lemma lenw_bound n ws : 0 < n -> length (chunks_of n (concat ws)) <= lenw ws.
Proof.
  intros Hn. destruct (chunks_of_spec n (concat ws) Hn) as [C S].
  apply (chunking_length n _ Hn) in S. rewrite C in S. exact S.
Qed.

Lemma full_chunks_bound n ws : 0 < n -> length (fst (sink_writes n [] ws)) <= lenw ws.
Proof.
  intros Hn. pose proof (lenw_bound n ws Hn) as B.
  rewrite <- (proj1 (sink_writes_chunks n ws Hn)), app_length in B. exact (Nat.le_trans _ _ _ (Nat.le_add_r _ _) B).
Qed.

Lemma produce_ok n ws : 0 < n -> produce n ws false = map MChunk (chunks_of n (concat ws)) ++ [MEnd].
Proof.
  intros Hn. rewrite <- (proj1 (sink_writes_chunks n ws Hn)). unfold produce.
  destruct (sink_writes n [] ws) as [cs tail]. cbn [fst snd].
  destruct tail; cbn [tailc]; rewrite map_app, <- app_assoc; reflexivity.
Qed.

Lemma produce_fail n ws : produce n ws true = map MChunk (fst (sink_writes n [] ws)) ++ [MFail].
Proof. unfold produce. now destruct (sink_writes n [] ws). Qed.

(** clean end after the chunks [cs] *)
Fixpoint pulls_ok (cs : list chunk) : list resp :=
  match cs with
  | [] => [RChunk [] true]
  | c :: cs' => match cs' with
                | [] => [RChunk c true]
                | _ :: _ => RChunk c false :: pulls_ok cs'
                end
  end.

(** failure (or a channel closed without a terminal message) after the chunks [cs] *)
Fixpoint pulls_fail (cs : list chunk) : list resp :=
  match cs with
  | [] => [RErr EC_INTERNAL]
  | c :: cs' => match cs' with
                | [] => [RErr EC_INTERNAL]
                | _ :: _ => RChunk c false :: pulls_fail cs'
                end
  end.

Definition pulls (ok : bool) : list chunk -> list resp := if ok then pulls_ok else pulls_fail.

Lemma pulls_more ok c c2 cs : pulls ok (c :: c2 :: cs) = RChunk c false :: pulls ok (c2 :: cs).
Proof. now destruct ok. Qed.

Definition nonlast (c : chunk) : resp := RChunk c false.

Lemma pulls_shape ok cs :
  pulls ok cs = map nonlast (removelast cs) ++ [if ok then RChunk (last cs []) true else RErr EC_INTERNAL].
Proof.
  induction cs as [|c cs IH]; [now destruct ok|]. destruct cs as [|c2 cs]; [now destruct ok|].
  rewrite pulls_more, IH. reflexivity.
Qed.

Lemma concat_removelast_last (cs : list chunk) : concat cs = concat (removelast cs) ++ last cs [].
Proof.
  induction cs as [|c cs IH]; [reflexivity|]. destruct cs as [|c2 cs]; [apply app_nil_r|].
  change (c ++ concat (c2 :: cs) = (c ++ concat (removelast (c2 :: cs))) ++ last (c2 :: cs) []).
  now rewrite IH, app_assoc.
Qed.

Lemma bodies_app a b : bodies (a ++ b) = bodies a ++ bodies b.
Proof. unfold bodies. now rewrite map_app, concat_app. Qed.

Lemma bodies_nonlast l : bodies (map nonlast l) = concat l.
Proof. unfold bodies. induction l as [|c l IH]; [reflexivity|]. cbn [map concat resp_body nonlast]. now rewrite IH. Qed.

Lemma bodies_pulls_ok cs : bodies (pulls_ok cs) = concat cs.
Proof. rewrite (pulls_shape true), bodies_app, bodies_nonlast, (concat_removelast_last cs). cbn. now rewrite app_nil_r. Qed.

(** a failed stream delivers all full chunks but the last: the lookahead still holds it when
    the failure arrives *)
Lemma bodies_pulls_fail cs : bodies (pulls_fail cs) = concat (removelast cs).
Proof. rewrite (pulls_shape false), bodies_app, bodies_nonlast. apply app_nil_r. Qed.

Definition not_last (r : resp) : Prop := exists b, r = RChunk b false.

Lemma not_last_nonlast l : Forall not_last (map nonlast l).
Proof. induction l as [|c l IH]; constructor; [now exists c|exact IH]. Qed.

Lemma one_last_final_iff rs : one_last_final rs = true <->
  exists init b, rs = init ++ [RChunk b true] /\ Forall not_last init.
Proof.
  split.
  - induction rs as [|r rs IH]; intros H; [discriminate|].
    destruct r as [b [|]|ec]; cbn [one_last_final] in H; [|destruct (IH H) as (init & b' & -> & Hf)|discriminate].
    + destruct rs; [|discriminate]. exists [], b. split; [reflexivity|constructor].
    + exists (RChunk b false :: init), b'. split; [reflexivity|]. constructor; [now exists b|exact Hf].
  - intros (init & b & -> & Hf). induction Hf as [|r init [b' ->] _ IH]; [reflexivity|exact IH].
Qed.

Lemma ends_in_error_iff rs : ends_in_error rs = true <->
  exists init ec, rs = init ++ [RErr ec] /\ Forall not_last init.
Proof.
  split.
  - induction rs as [|r rs IH]; intros H; [discriminate|].
    destruct r as [b [|]|ec]; cbn [ends_in_error] in H; [discriminate|destruct (IH H) as (init & ec & -> & Hf)|].
    + exists (RChunk b false :: init), ec. split; [reflexivity|]. constructor; [now exists b|exact Hf].
    + destruct rs; [|discriminate]. exists [], ec. split; [reflexivity|constructor].
  - intros (init & ec & -> & Hf). induction Hf as [|r init [b' ->] _ IH]; [reflexivity|exact IH].
Qed.

Lemma one_last_final_pulls_ok cs : one_last_final (pulls_ok cs) = true.
Proof. apply one_last_final_iff. eexists _, _. split; [apply (pulls_shape true)|apply not_last_nonlast]. Qed.

Lemma ends_in_error_pulls_fail cs : ends_in_error (pulls_fail cs) = true.
Proof. apply ends_in_error_iff. eexists _, _. split; [apply (pulls_shape false)|apply not_last_nonlast]. Qed.

Lemma no_last_in_failed cs j : one_last_final (firstn j (pulls_fail cs)) = false.
Proof.
  rewrite (pulls_shape false). revert j.
  induction (removelast cs) as [|c l IH]; intros [|j]; try reflexivity. apply IH.
Qed.

Lemma partial_ok_shape chk mf r rest : partial_ok chk mf [r] rest = true -> forall l j,
  partial_ok chk mf (firstn j (map nonlast l ++ [r])) (concat l ++ rest) = true.
Proof.
  intros Hr l; induction l as [|c l IH]; intros j; (destruct j as [|j]; [reflexivity|]).
  - cbn [map app concat firstn]. rewrite firstn_nil. exact Hr.
  - cbn [map app concat firstn partial_ok nonlast].
    rewrite <- app_assoc, starts_with_app, skipn_app_exact, IH. now destruct chk.
Qed.

Lemma partial_ok_pulls_ok chk cs j : partial_ok chk false (firstn j (pulls_ok cs)) (concat cs) = true.
Proof.
  rewrite (pulls_shape true), concat_removelast_last. apply partial_ok_shape.
  cbn [partial_ok is_nil negb andb]. rewrite starts_with_refl, Nat.eqb_refl. now destruct chk.
Qed.

Lemma partial_ok_pulls_fail chk cs j extra :
  partial_ok chk true (firstn j (pulls_fail cs)) (concat cs ++ extra) = true.
Proof. rewrite (pulls_shape false), concat_removelast_last, <- app_assoc. now apply partial_ok_shape. Qed.

Definition st (rx : list msg) (look : option chunk) : table := Some (mkSession rx look false).

(** the terminal message that follows the chunks *)
Inductive term_ok : list msg -> Prop := term_end rest : term_ok (MEnd :: rest).
Inductive term_fail : list msg -> Prop :=
| term_f rest : term_fail (MFail :: rest)
| term_closed : term_fail [].

Definition terminal (ok : bool) : list msg -> Prop := if ok then term_ok else term_fail.

Definition pending (look : option chunk) (cs : list chunk) : list chunk :=
  match look with Some c => c :: cs | None => cs end.

Lemma next_more c c2 rx : next_handler (st (MChunk c2 :: rx) (Some c)) = (RChunk c false, st rx (Some c2)).
Proof. reflexivity. Qed.

Lemma first_chunk c rx j : raw_pulls (S j) (st (MChunk c :: rx) None) = raw_pulls (S j) (st rx (Some c)).
Proof. reflexivity. Qed.

Lemma session_pulls ok tl : terminal ok tl -> forall cs look j,
  fst (raw_pulls j (st (map MChunk cs ++ tl) look)) = firstn j (pulls ok (pending look cs)) /\
  (length (pending look cs) < j ->
   raw_pulls j (st (map MChunk cs ++ tl) look) = (pulls ok (pending look cs), None)).
Proof.
  intros Ht cs; induction cs as [|c2 cs IH]; intros look j; cbn [map app].
  - destruct j as [|j]; [split; [reflexivity|intros H; inversion H]|].
    destruct ok, Ht, look; (split; [destruct j|intros _]; reflexivity).
  - destruct j as [|j]; [split; [reflexivity|intros H; inversion H]|].
    destruct look as [c|]; [|rewrite first_chunk; exact (IH (Some c2) (S j))].
    destruct (IH (Some c2) j) as [F W].
    cbn [raw_pulls pending]. rewrite next_more, pulls_more. split.
    + destruct (raw_pulls j _) as [rs t']. cbn [fst firstn] in *. now rewrite F.
    + intros H. rewrite W by exact (proj2 (Nat.succ_lt_mono _ _) H). reflexivity.
Qed.

Lemma reader_of_pulls j : forall t, chunk_reader j t =
  let rs := fst (raw_pulls j t) in if one_last_final rs then HBytes (bodies rs) else HErr.
Proof.
  induction j as [|j IH]; intros t; [reflexivity|]. cbn [chunk_reader raw_pulls].
  destruct (next_handler t) as [[b [|]|ec] t']; [cbn; now rewrite app_nil_r| |reflexivity].
  rewrite IH. destruct (raw_pulls j t') as [rs t'']. cbn [fst one_last_final]. now destruct (one_last_final rs).
Qed.

Lemma session_read ok tl : terminal ok tl -> forall cs look j, (ok = true -> length (pending look cs) < j) ->
  chunk_reader j (st (map MChunk cs ++ tl) look) = if ok then HBytes (concat (pending look cs)) else HErr.
Proof.
  intros Ht cs look j Hj. rewrite reader_of_pulls. destruct (session_pulls ok tl Ht cs look j) as [F W].
  destruct ok; cbn [pulls] in *.
  - rewrite (W (Hj eq_refl)). cbn [fst]. now rewrite one_last_final_pulls_ok, bodies_pulls_ok.
  - now rewrite F, no_last_in_failed.
Qed.

Theorem raw_exchange_ok n ws fuel : 0 < n -> lenw ws < fuel ->
  raw_pulls fuel (open_handler n ws false) = (pulls_ok (chunks_of n (concat ws)), None).
Proof.
  intros Hn Hf. unfold open_handler. rewrite produce_ok by exact Hn.
  apply (session_pulls true [MEnd] (term_end []) _ None). exact (Nat.le_lt_trans _ _ _ (lenw_bound n ws Hn) Hf).
Qed.

Theorem reader_ok n ws fuel : 0 < n -> lenw ws < fuel ->
  chunk_reader fuel (open_handler n ws false) = HBytes (concat ws).
Proof.
  intros Hn Hf. unfold open_handler. rewrite produce_ok by exact Hn.
  etransitivity; [apply (session_read true [MEnd] (term_end []) _ None); intros _;
                  exact (Nat.le_lt_trans _ _ _ (lenw_bound n ws Hn) Hf)|].
  cbn [pending]. f_equal. apply chunks_of_spec, Hn.
Qed.

(** a body writer that returns an error sends [Fail] after the full chunks.  One that panics
    closes the channel after them, which the session treats as a failure; the consumer sees
    exactly what it sees when the body writer returns an error at the same point *)
Lemma open_failed n ws (panic : bool) : exists tl, term_fail tl /\
  (if panic then open_panic n ws else open_handler n ws true) =
  st (map MChunk (fst (sink_writes n [] ws)) ++ tl) None.
Proof.
  destruct panic; [exists []|exists [MFail]]; (split; [constructor|]).
  - unfold open_panic, produce_panic. now rewrite app_nil_r.
  - unfold open_handler. now rewrite produce_fail.
Qed.

Lemma raw_exchange_fail_or_panic n ws (panic : bool) fuel : 0 < n -> lenw ws < fuel ->
  raw_pulls fuel (if panic then open_panic n ws else open_handler n ws true) =
  (pulls_fail (fst (sink_writes n [] ws)), None).
Proof.
  intros Hn Hf. destruct (open_failed n ws panic) as (tl & Ht & ->).
  apply (session_pulls false tl Ht _ None). exact (Nat.le_lt_trans _ _ _ (full_chunks_bound n ws Hn) Hf).
Qed.

Lemma reader_failed n ws (panic : bool) fuel :
  chunk_reader fuel (if panic then open_panic n ws else open_handler n ws true) = HErr.
Proof.
  destruct (open_failed n ws panic) as (tl & Ht & ->). now apply (session_read false tl Ht _ None).
Qed.

Theorem raw_exchange_fail n ws fuel : 0 < n -> lenw ws < fuel ->
  raw_pulls fuel (open_handler n ws true) = (pulls_fail (fst (sink_writes n [] ws)), None).
Proof. exact (raw_exchange_fail_or_panic n ws false fuel). Qed.

Theorem panic_same_as_error n ws fuel : 0 < n -> lenw ws < fuel ->
  raw_pulls fuel (open_panic n ws) = raw_pulls fuel (open_handler n ws true) /\
  chunk_reader fuel (open_panic n ws) = chunk_reader fuel (open_handler n ws true).
Proof.
  intros Hn Hf. split.
  - rewrite raw_exchange_fail by assumption. exact (raw_exchange_fail_or_panic n ws true fuel Hn Hf).
  - exact (eq_trans (reader_failed n ws true fuel) (eq_sym (reader_failed n ws false fuel))).
Qed.

Theorem pull_concat n ws fuel : 0 < n -> lenw ws < fuel ->
  bodies (fst (raw_pulls fuel (open_handler n ws false))) = concat ws.
Proof.
  intros Hn Hf. rewrite raw_exchange_ok by assumption. cbn [fst].
  rewrite bodies_pulls_ok. exact (proj1 (chunks_of_spec n _ Hn)).
Qed.

Theorem exactly_one_last n ws fuel : 0 < n -> lenw ws < fuel ->
  exists init b, fst (raw_pulls fuel (open_handler n ws false)) = init ++ [RChunk b true] /\ Forall not_last init.
Proof.
  intros Hn Hf. rewrite raw_exchange_ok by assumption. cbn [fst].
  eexists _, _. split; [apply (pulls_shape true)|apply not_last_nonlast].
Qed.

Lemma pulls_ok_nil_only cs : cs = [] -> pulls_ok cs = [RChunk [] true].
Proof. intros ->. reflexivity. Qed.

Theorem pull_after_end_errors n ws failed fuel : 0 < n -> lenw ws < fuel ->
  next_handler (snd (raw_pulls fuel (open_handler n ws failed))) = (RErr EC_INVALID_QUERY, None).
Proof.
  intros Hn Hf. destruct failed; [rewrite raw_exchange_fail|rewrite raw_exchange_ok]; try assumption; reflexivity.
Qed.

Theorem fail_never_last n ws fuel : 0 < n -> lenw ws < fuel ->
  exists init, fst (raw_pulls fuel (open_handler n ws true)) = init ++ [RErr EC_INTERNAL] /\
               Forall not_last init /\ exists r, concat ws = bodies init ++ r.
Proof.
  intros Hn Hf. rewrite raw_exchange_fail by assumption. cbn [fst].
  eexists. split; [apply (pulls_shape false)|]. split; [apply not_last_nonlast|].
  rewrite bodies_nonlast, (sink_full_chunks_prefix n ws Hn), concat_removelast_last, <- app_assoc.
  eexists. reflexivity.
Qed.

Lemma segment_concat sizes : forall data, concat (segment sizes data) = data.
Proof.
  induction sizes as [|k sizes IH]; intros data; cbn [segment].
  - destruct data; [reflexivity|]. cbn [concat]. now rewrite app_nil_r.
  - cbn [concat]. rewrite IH. apply firstn_skipn.
Qed.

(** the bounded channel, a model of its own that only [chan_fifo] speaks of: whatever the depth
    and the schedule, the consumer receives the producer's messages in the order they were sent *)
Record chan : Set := mkChan { ch_pending : list msg; ch_queue : list msg; ch_got : list msg }.

Inductive chan_step (d : nat) : chan -> chan -> Prop :=
| ch_send m p q g : length q < d -> chan_step d (mkChan (m :: p) q g) (mkChan p (q ++ [m]) g)
| ch_recv m p q g : chan_step d (mkChan p (m :: q) g) (mkChan p q (g ++ [m]))
| ch_rendezvous m p g : chan_step d (mkChan (m :: p) [] g) (mkChan p [] (g ++ [m])).

Inductive chan_reach (d : nat) : chan -> chan -> Prop :=
| reach_refl c : chan_reach d c c
| reach_step c1 c2 c3 : chan_reach d c1 c2 -> chan_step d c2 c3 -> chan_reach d c1 c3.

Lemma chan_fifo d msgs c : chan_reach d (mkChan msgs [] []) c ->
  ch_got c ++ ch_queue c ++ ch_pending c = msgs.
Proof.
  intros H. remember (mkChan msgs [] []) as c0 eqn:E. induction H as [c|c1 c2 c3 H IH S].
  - subst c. reflexivity.
  - specialize (IH E). destruct S; cbn [ch_got ch_queue ch_pending] in *; rewrite <- IH;
      repeat rewrite <- app_assoc; reflexivity.
Qed.

Local Open Scope N_scope.

Lemma wf_n c : c09_wf c = true -> (0 < N.to_nat (c_n c))%nat /\ c_zstd c = false.
Proof.
  unfold c09_wf. intros H. do 3 apply andb_prop in H as [H _]. apply andb_prop in H as [H Hz].
  split; [|now destruct (c_zstd c)]. destruct (c_n c); [discriminate H|apply Pos2Nat.is_pos].
Qed.

Lemma hl_is_refl b : hl_is (HBytes b) (Some b) = true.
Proof. apply bytes_eqb_refl. Qed.

Lemma partial_ok_nochk mf rs : forall r1 r2, partial_ok false mf rs r1 = partial_ok false mf rs r2.
Proof.
  induction rs as [|r rs IH]; intros r1 r2; [reflexivity|].
  destruct r as [b [|]|ec]; cbn [partial_ok]; [reflexivity| |reflexivity]. cbn [andb]. apply IH.
Qed.

Lemma model_with_stream c ws plain ok tl cs : terminal ok tl ->
  c09_open c ws = st (map MChunk cs ++ tl) None -> (length cs <= lenw ws)%nat ->
  model_C09_with c ws plain =
  let vec := if ok then HBytes (if c_zstd c then plain else concat cs) else HErr in
  mkO09 (pulls ok cs) (RErr EC_INVALID_QUERY)
        (firstn (N.to_nat (c_cancel_after c)) (pulls ok cs)) (RErr EC_INVALID_QUERY)
        (if c_zstd c then plain else []) vec (if c_kind c <? 3 then Some vec else None).
Proof.
  intros Ht E B. unfold model_C09_with. rewrite E.
  rewrite (proj2 (session_pulls ok tl Ht cs None (S (S (lenw ws))))) by apply le_n_S, le_S, B.
  rewrite (session_read ok tl Ht cs None) by (intros _; apply le_n_S, le_S, B).
  pose proof (proj1 (session_pulls ok tl Ht cs None (N.to_nat (c_cancel_after c)))) as P.
  destruct (raw_pulls (N.to_nat (c_cancel_after c)) _) as [cp t2]. cbn [fst pending] in P. subst cp.
  now destruct ok.
Qed.

(** a stream that ends cleanly and carries the data, or compressed bytes that decompress to it *)
Lemma ok_clean c ws plain : c_fail c = None -> (0 < N.to_nat (c_n c))%nat ->
  (if c_zstd c then plain else concat ws) = c_data c ->
  ok_C09 c (model_C09_with c ws plain) = true.
Proof.
  intros Hf Hn H. set (cs := chunks_of (N.to_nat (c_n c)) (concat ws)).
  destruct (chunks_of_spec _ (concat ws) Hn) as [C _]. fold cs in C.
  pose proof (partial_ok_pulls_ok true cs (N.to_nat (c_cancel_after c))) as P. rewrite C in P.
  rewrite (model_with_stream c ws plain true [MEnd] cs (term_end []));
    [|unfold c09_open, c09_failed; rewrite Hf; unfold open_handler, st; now rewrite produce_ok
     |exact (lenw_bound _ ws Hn)].
  cbn zeta. unfold ok_C09, pulls. rewrite Hf.
  cbn [o_pulls o_after_end o_cancel_pulls o_after_cancel o_plain o_vec o_typed is_err andb].
  rewrite one_last_final_pulls_ok, bodies_pulls_ok, C. revert H.
  destruct (c_zstd c); cbn [negb andb]; intros H.
  - rewrite H, bytes_eqb_refl, andb_false_r, hl_is_refl, (partial_ok_nochk false _ _ (concat cs)), partial_ok_pulls_ok.
    destruct (c_kind c <? 3); [rewrite hl_is_refl|]; reflexivity.
  - rewrite <- H, bytes_eqb_refl, hl_is_refl, P. subst cs.
    destruct (c_kind c <? 3); [rewrite hl_is_refl|]; (destruct (concat ws); reflexivity).
Qed.

Theorem ok_model_C09 c : c09_wf c = true -> ok_C09 c (model_C09 c) = true.
Proof.
  intros W. destruct (wf_n c W) as [Hn Hz].
  pose proof (segment_concat (c_writes c) (c09_written c)) as Hcat.
  unfold c09_written in Hcat. unfold model_C09, c09_writes, c09_written.
  destruct (c_fail c) as [k|] eqn:Hf; [|apply ok_clean; [exact Hf|exact Hn|now rewrite Hz]].
  set (ws := segment _ _) in *.
  destruct (open_failed (N.to_nat (c_n c)) ws (c_panic c)) as (tl & Ht & E).
  pose proof (sink_full_chunks_prefix _ ws Hn) as Hp. rewrite Hcat in Hp.
  set (cs := fst (sink_writes _ [] ws)) in *.
  rewrite (model_with_stream c ws [] false tl cs Ht);
    [|unfold c09_open, c09_failed; rewrite Hf; exact E|exact (full_chunks_bound _ ws Hn)].
  cbn zeta. unfold ok_C09, pulls. rewrite Hf, Hz.
  cbn [o_pulls o_after_end o_cancel_pulls o_after_cancel o_plain o_vec o_typed is_err negb andb hl_is].
  rewrite ends_in_error_pulls_fail, bodies_pulls_fail, Hp, partial_ok_pulls_fail.
  rewrite (concat_removelast_last cs), <- app_assoc, starts_with_app.
  now destruct (c_kind c <? 3).
Qed.
