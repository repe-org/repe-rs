(** The C02 oracle accepts the model's observation for every byte string. *)
From RepeV Require Import Model.C02 Proofs.HeaderProofs Proofs.MessageProofs.
From Coq Require Import ZifyBool ZifyN ZifyNat.

(** Model/C02.v spells out the body of [layout_ok] *)
Lemma header_matches_eq bs h :
  header_matches bs h
  = layout_ok h bs && (h_spec h =? REPE_SPEC) && (h_length h =? HEADER_SIZE + h_qlen h + h_blen h).
Proof. reflexivity. Qed.

Lemma decode_good bs h : decode bs = Ok h -> header_matches bs h = true.
Proof.
  intros D. pose proof (decode_layout_ok _ _ D) as L.
  apply decode_ok_spec in D as (_ & _ & Hs & Hl & _).
  now rewrite header_matches_eq, L, Hs, <- Hl, !N.eqb_refl.
Qed.

Lemma parse_okb_of exact bs m :
  parse_ok bs m -> (exact = true -> lenN bs = h_length (m_hdr m)) -> parse_okb exact bs m = true.
Proof.
  intros P He. unfold parse_okb. rewrite (decode_good _ _ (parse_ok_decode _ _ P)).
  destruct P as (_ & Hlen & <- & <-). rewrite !bytes_eqb_refl, !andb_true_r.
  destruct exact; [rewrite He by reflexivity; apply N.eqb_refl|now apply N.leb_le].
Qed.

Lemma res_ok_total {A} (r : outcome A) good :
  crashes r = false -> (forall a, r = Ok a -> good a = true) -> res_ok r good = true.
Proof. destruct r; cbn; intros C H; try discriminate; auto. Qed.

Theorem ok_model_C02 bs : bytes_ok bs = true -> ok_C02 bs (model_C02 bs) = true.
Proof.
  intros Hb. unfold ok_C02, model_C02.
  cbn [p_decode p_from_slice p_from_slice_exact p_view p_view_exact p_read p_read_into].
  rewrite view_eq_owned, view_exact_eq.
  assert (res_ok (from_slice bs) (parse_okb false bs) = true) as ->.
  { apply res_ok_total; [apply from_slice_total|]. intros m F.
    apply parse_okb_of; [now apply from_slice_ok|discriminate]. }
  assert (res_ok (from_slice_exact bs) (parse_okb true bs) = true) as ->.
  { apply res_ok_total; [apply from_slice_exact_total|]. intros m F.
    apply from_slice_exact_ok in F as [P L]. now apply parse_okb_of. }
  rewrite !andb_true_r. repeat (apply andb_true_intro; split).
  - apply res_ok_total; [apply decode_total|]. intros h. apply decode_good.
  - apply res_ok_total; [apply read_message_total|]. intros [m rest] F.
    pose proof (read_message_from_slice _ _ _ _ Hb F) as P. apply from_slice_ok in P.
    apply read_message_ok in F as [-> Hok]; [|exact Hb].
    rewrite parse_okb_of by (exact P || discriminate).
    rewrite <- (lenN_to_vec m (msg_ok_lens m Hok)). unfold lenN.
    rewrite Nat2N.id, skipn_app_exact. apply bytes_eqb_refl.
  - apply res_ok_total; [apply read_message_into_total|]. intros [f rest] F.
    apply read_message_into_ok in F as (-> & h & D & L).
    rewrite D, (decode_good _ _ (decode_app_ok f rest h D)), <- L. unfold lenN.
    now rewrite Nat2N.id, firstn_app_exact, skipn_app_exact, N.eqb_refl, !bytes_eqb_refl.
Qed.
