(** What "the generated rendering agrees with the hand model" means, and the
    tactics the Proofs/*GenAgree.v files share.  A
    function that bin/rs2v could not translate is [None] and its agreement
    statement degrades to [True]. *)
From Coq Require Import List NArith Lia.

Definition agrees1 {A B} (g : option (A -> B)) (m : A -> B) : Prop :=
  match g with Some f => forall a, f a = m a | None => True end.
Definition agrees2 {A B C} (g : option (A -> B -> C)) (m : A -> B -> C) : Prop :=
  match g with Some f => forall a b, f a b = m a b | None => True end.
Definition agrees3 {A B C D} (g : option (A -> B -> C -> D)) (m : A -> B -> C -> D) : Prop :=
  match g with Some f => forall a b c, f a b c = m a b c | None => True end.
Definition agrees4 {A B C D E} (g : option (A -> B -> C -> D -> E)) (m : A -> B -> C -> D -> E) : Prop :=
  match g with Some f => forall a b c d, f a b c d = m a b c d | None => True end.
Definition agrees5 {A B C D E F} (g : option (A -> B -> C -> D -> E -> F)) (m : A -> B -> C -> D -> E -> F) : Prop :=
  match g with Some f => forall a b c d e, f a b c d e = m a b c d e | None => True end.

(** reduce [match gen_X with Some f => P f | None => True end] to [P body_X] with
    [body_X] unfolded, or close the goal when [gen_X] is [None]; every later
    sentence of a proof starts with [all:] so that it is skipped in that case
    (and no proof mentions a [body_X] by name: it may not exist) *)
Ltac gen_start :=
  unfold agrees1, agrees2, agrees3, agrees4, agrees5;
  lazymatch goal with
  | |- match ?g with Some _ => _ | None => _ end =>
      let g' := eval red in g in
      change g with g'; cbv beta iota;
      lazymatch g' with Some ?f => unfold f | _ => idtac end
  end;
  lazymatch goal with |- True => exact I | |- _ => idtac end.
(** use the agreement lemma [H] of a callee (its [gen_] is [Some] here, or the caller would be [None]) *)
Ltac callee H := unfold agrees1, agrees2, agrees3, agrees4, agrees5 in H;
  lazymatch type of H with
  | match ?g with Some _ => _ | None => _ end =>
      let g' := eval red in g in change g with g' in H; cbv beta iota in H
  end.

(** a statement that follows from the agreement [H] of the same function (a corollary under
    hypotheses) or of its one callee: both are opened, the binders come in under the names the
    statement gives them, and [rewrite H] is tried; what is left is the caller's *)
Ltac by_agree H :=
  lazymatch goal with
  | |- match ?g with Some _ => _ | None => _ end =>
      let g' := eval red in g in
      change g with g' in H; change g with g'; cbv beta iota in H; cbv beta iota
  end;
  lazymatch goal with |- True => exact I | |- _ => intros; try (rewrite H; reflexivity) end.

(** a case for every [if] and every [match] on an option, in the goal and in the answers recorded
    so far, however they nest; a case whose answers contradict one another is dropped *)
Ltac split_all :=
  repeat (match goal with
          | |- context [if ?b then _ else _] => destruct b eqn:?
          | |- context [match ?o with Some _ => _ | None => _ end] => destruct o eqn:?
          | H : context [if ?b then _ else _] |- _ => destruct b eqn:?
          | H : context [match ?o with Some _ => _ | None => _ end] |- _ => destruct o eqn:?
          end; cbv beta iota in *; try discriminate).

(** a leaf: the same outcome on both sides, or a combination of tests that cannot occur
    ([lia] on the recorded equations).  The last arm is for equal constructors whose arguments
    still contain tests ([build]'s format defaults, [if f =? 0 then 0 else f] against [f]): one
    equation per argument, then its cases. *)
Ltac done :=
  first [reflexivity | discriminate | congruence | exfalso; lia | repeat f_equal; split_all; lia].
