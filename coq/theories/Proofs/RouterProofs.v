(** The router model (Model/Router.v).  The state reached by a registration
    history is described in terms of the history ([run_inv]); [Router::get] is
    then a function of the history ([lookup_spec]), and what is said about
    precedence, mounts and the oracle is read off that function. *)
From RepeV Require Import Model.JsonPtr Model.Router Proofs.JsonPtrProofs.

Lemma app_cons_ne {A} (l : list A) c r : l ++ c :: r <> l.
Proof. intros H. rewrite <- (app_nil_r l) in H at 2. apply app_inv_head in H. discriminate. Qed.

Lemma find_map {A B} (f : B -> bool) (g : A -> B) l :
  find f (map g l) = option_map g (find (fun x => f (g x)) l).
Proof.
  induction l as [|x l IH]; cbn [map find option_map]; [reflexivity|].
  destruct (f (g x)); [reflexivity|exact IH].
Qed.

Lemma find_ext {A} (f g : A -> bool) l : (forall x, f x = g x) -> find f l = find g l.
Proof.
  intros H. induction l as [|x l IH]; cbn [find]; [reflexivity|]. rewrite H, IH. reflexivity.
Qed.

Lemma find_app {A} (f : A -> bool) l1 l2 :
  find f (l1 ++ l2) = match find f l1 with Some x => Some x | None => find f l2 end.
Proof.
  induction l1 as [|x l1 IH]; cbn [app find]; [reflexivity|]. destruct (f x); [reflexivity|exact IH].
Qed.

Lemma find_none_iff {A} (f : A -> bool) l : find f l = None <-> forall x, In x l -> f x = false.
Proof.
  split; [apply find_none|]. induction l as [|y l IH]; cbn [find]; intros H; [reflexivity|].
  rewrite (H y (or_introl eq_refl)). apply IH. intros x Hx. apply H. right. exact Hx.
Qed.

Lemma strip_prefix_spec pre : forall s r, strip_prefix pre s = Some r <-> s = pre ++ r.
Proof.
  induction pre as [|a pre IH]; intros [|b s] r; cbn [strip_prefix app]; try (split; congruence).
  destruct (N.eqb_spec a b) as [->|E]; [rewrite IH|]; split; congruence.
Qed.

Lemma strip_prefix_app pre r : strip_prefix pre (pre ++ r) = Some r.
Proof. apply strip_prefix_spec. reflexivity. Qed.

Lemma prefix_of_spec a : forall b, prefix_of a b = true <-> exists r, b = a ++ r.
Proof.
  induction a as [|x a IH]; intros [|y b]; cbn [prefix_of app].
  - split; [intros _; exists []; reflexivity|reflexivity].
  - split; [intros _; eexists; reflexivity|reflexivity].
  - split; [discriminate|]. intros [r H]. discriminate.
  - rewrite andb_true_iff, N.eqb_eq, IH. split.
    + intros [E [r H]]. subst. exists r. reflexivity.
    + intros [r H]. injection H as H1 H2. split; [symmetry; exact H1|]. exists r. exact H2.
Qed.

Lemma starts_with_slash_iff s : starts_with_slash s = true <-> exists r, s = 47 :: r.
Proof.
  destruct s as [|c s]; cbn [starts_with_slash].
  - split; [discriminate|]. intros [r H]. discriminate.
  - rewrite N.eqb_eq. split; [intros H; subst; eexists; reflexivity|]. intros [r H]. congruence.
Qed.

Lemma matches_iff pre p : matches pre p = true <-> covers_prop pre p.
Proof.
  unfold covers_prop. destruct pre as [|a pre']; [split; [left|]; reflexivity|].
  cbn [matches]. split.
  - destruct (str_eqb p (a :: pre')) eqn:E; [apply str_eqb_eq in E; auto|].
    destruct (strip_prefix (a :: pre') p) as [rest|] eqn:E1; [|discriminate].
    intros H. apply starts_with_slash_iff in H as [r ->]. apply strip_prefix_spec in E1. eauto.
  - intros [H|[->|[r ->]]]; [discriminate|rewrite str_eqb_refl; reflexivity|].
    rewrite strip_prefix_app. destruct (str_eqb _ _); reflexivity.
Qed.

Lemma matches_not_covered pre p : ~ covers_prop pre p -> matches pre p = false.
Proof. rewrite <- matches_iff. apply not_true_is_false. Qed.

Lemma covers_iff pre p : covers pre p = true <-> covers_prop pre p.
Proof.
  unfold covers_prop, covers. destruct pre as [|a pre']; [split; [left|]; reflexivity|].
  rewrite orb_true_iff, str_eqb_eq, prefix_of_spec. split.
  - intros [H|[r H]]; [auto|]. rewrite <- app_assoc in H. eauto.
  - intros [H|[H|[r H]]]; [discriminate|auto|]. right. exists r. rewrite <- app_assoc. exact H.
Qed.

Lemma matches_covers pre p : matches pre p = covers pre p.
Proof. apply eq_true_iff_eq. rewrite matches_iff, covers_iff. reflexivity. Qed.

Lemma matches_no_boundary pre c r : pre <> [] -> c <> 47 -> matches pre (pre ++ c :: r) = false.
Proof.
  intros Hne Hc. apply matches_not_covered. intros [H|[H|[r' H]]].
  - contradiction.
  - exact (app_cons_ne pre c r H).
  - apply app_inv_head in H. congruence.
Qed.

Lemma remaining_app pre r : remaining pre (pre ++ r) = r.
Proof.
  unfold remaining. rewrite skipn_app, skipn_all, Nat.sub_diag. reflexivity.
Qed.

Lemma remaining_self pre : remaining pre pre = [].
Proof. unfold remaining. apply skipn_all. Qed.

Lemma struct_relative_eq pre p :
  struct_relative pre p = if matches pre p then Some (remaining pre p) else None.
Proof.
  destruct pre as [|a pre']; [reflexivity|]. cbn [struct_relative matches].
  destruct (str_eqb p (a :: pre')) eqn:E.
  - apply str_eqb_eq in E. subst p. rewrite remaining_self. reflexivity.
  - destruct (strip_prefix (a :: pre') p) as [rest|] eqn:E1; [|reflexivity].
    apply strip_prefix_spec in E1. subst p. rewrite remaining_app. reflexivity.
Qed.

Lemma registry_pointer_eq pre p :
  registry_pointer pre p
  = if matches pre p then Some (match remaining pre p with [] => [47] | rel => rel end) else None.
Proof.
  destruct pre as [|a pre']; [destruct p; reflexivity|]. cbn [registry_pointer matches].
  destruct (str_eqb p (a :: pre')) eqn:E.
  - apply str_eqb_eq in E. subst p. rewrite remaining_self. reflexivity.
  - destruct (strip_prefix (a :: pre') p) as [rest|] eqn:E1; [|reflexivity].
    apply strip_prefix_spec in E1. subst p. rewrite remaining_app. destruct rest; reflexivity.
Qed.

Lemma struct_relative_covered pre p :
  matches pre p = true -> struct_relative pre p = Some (remaining pre p).
Proof. intros H. rewrite struct_relative_eq, H. reflexivity. Qed.

Lemma registry_pointer_covered pre p :
  matches pre p = true ->
  registry_pointer pre p = Some (match remaining pre p with [] => [47] | rel => rel end).
Proof. intros H. rewrite registry_pointer_eq, H. reflexivity. Qed.

Lemma norm_root_shape root : norm_root root = [] \/ exists r, norm_root root = 47 :: r.
Proof.
  destruct root as [|c r]; [left; reflexivity|]. cbn [norm_root].
  destruct (N.eqb_spec c 47) as [E|E].
  - subst c. destruct r; [left; reflexivity|right; eexists; reflexivity].
  - right. eexists. reflexivity.
Qed.

Lemma trim_end_slashes_cons c s :
  trim_end_slashes (c :: s)
  = match trim_end_slashes s with [] => if c =? 47 then [] else [c] | r => c :: r end.
Proof. reflexivity. Qed.

Lemma trim_end_slashes_last s : forall x, trim_end_slashes s <> x ++ [47].
Proof.
  induction s as [|c s IH]; intros x.
  - cbn [trim_end_slashes]. destruct x; discriminate.
  - rewrite trim_end_slashes_cons. destruct (trim_end_slashes s) as [|d r] eqn:E.
    + destruct (N.eqb_spec c 47) as [E1|E1]; [destruct x; discriminate|].
      destruct x as [|y x]; cbn [app]; [congruence|]. destruct x; discriminate.
    + destruct x as [|y x]; cbn [app]; [discriminate|].
      intros H. injection H as H1 H2. exact (IH x H2).
Qed.

Lemma trim_end_slashes_spec s : exists k, s = trim_end_slashes s ++ repeat 47 k.
Proof.
  induction s as [|c s [k IH]].
  - exists 0%nat. reflexivity.
  - rewrite trim_end_slashes_cons. destruct (trim_end_slashes s) as [|d r].
    + destruct (N.eqb_spec c 47) as [->|_]; [exists (S k)|exists k]; exact (f_equal (cons _) IH).
    + exists k. exact (f_equal (cons c) IH).
Qed.

Lemma norm_root_not_single root a : norm_root root <> [a].
Proof.
  destruct root as [|c r]; [discriminate|]. cbn [norm_root].
  destruct (c =? 47); [destruct r; discriminate|discriminate].
Qed.

Lemma norm_prefix_no_trailing_slash p x : norm_prefix p <> x ++ [47].
Proof.
  unfold norm_prefix. destruct (norm_root p) as [|a [|b r]] eqn:E.
  - destruct x; discriminate.
  - exfalso. exact (norm_root_not_single p a E).
  - apply trim_end_slashes_last.
Qed.

Lemma norm_prefix_spec p : exists k, norm_root p = norm_prefix p ++ repeat 47 k.
Proof.
  unfold norm_prefix. destruct (norm_root p) as [|a [|b r]] eqn:E.
  - exists 0%nat. reflexivity.
  - exists 0%nat. reflexivity.
  - apply trim_end_slashes_spec.
Qed.

(** [listN_eqb] is [str_eqb] written again for lists of handler numbers: the two are convertible *)
Lemma listN_eqb_eq a b : listN_eqb a b = true <-> a = b.
Proof. exact (str_eqb_eq a b). Qed.

Lemma listN_eqb_refl l : listN_eqb l l = true.
Proof. apply listN_eqb_eq. reflexivity. Qed.

Lemma map_get_insert m e p :
  map_get (map_insert m e) p = if str_eqb (e_key e) p then Some e else map_get m p.
Proof.
  induction m as [|x m IH]; cbn [map_insert map_get]; [reflexivity|].
  destruct (str_eqb (e_key x) (e_key e)) eqn:E.
  - apply str_eqb_eq in E. cbn [map_get]. rewrite E. destruct (str_eqb (e_key e) p); reflexivity.
  - cbn [map_get]. rewrite IH. destruct (str_eqb (e_key x) p) eqn:E1; [|reflexivity].
    apply str_eqb_eq in E1. subst p. rewrite str_eqb_neq in E.
    destruct (str_eqb (e_key e) (e_key x)) eqn:E2; [|reflexivity].
    apply str_eqb_eq in E2. congruence.
Qed.

Lemma map_get_rebuild mws m p :
  map_get (map (rebuild mws) m) p = option_map (rebuild mws) (map_get m p).
Proof.
  induction m as [|x m IH]; cbn [map map_get option_map]; [reflexivity|].
  change (e_key (rebuild mws x)) with (e_key x). destruct (str_eqb (e_key x) p); [reflexivity|exact IH].
Qed.

Lemma Forall_map_insert (P : entry -> Prop) m e : Forall P m -> P e -> Forall P (map_insert m e).
Proof.
  intros Hm He. induction Hm as [|x m Hx Hm IH]; cbn [map_insert].
  - constructor; [exact He|constructor].
  - destruct (str_eqb (e_key x) (e_key e)); constructor; assumption.
Qed.

Lemma mws_of_app a b : mws_of (a ++ b) = mws_of a ++ mws_of b.
Proof.
  induction a as [|o a IH]; cbn [app mws_of]; [reflexivity|].
  destruct o; rewrite IH; reflexivity.
Qed.

Lemma regs_of_app a b : regs_of (a ++ b) = regs_of a ++ regs_of b.
Proof.
  induction a as [|o a IH]; cbn [app regs_of]; [reflexivity|].
  destruct o; rewrite IH; reflexivity.
Qed.

Lemma structs_of_app a b : structs_of (a ++ b) = structs_of a ++ structs_of b.
Proof.
  induction a as [|o a IH]; cbn [app structs_of]; [reflexivity|].
  destruct o; rewrite IH; reflexivity.
Qed.

Lemma hids_app a b : hids (a ++ b) = hids a ++ hids b.
Proof.
  induction a as [|o a IH]; cbn [app hids]; [reflexivity|]. destruct o; rewrite IH; reflexivity.
Qed.

Lemma last_route_app a b p :
  last_route (a ++ b) p = match last_route b p with Some h => Some h | None => last_route a p end.
Proof.
  induction a as [|o a IH]; cbn [app last_route].
  - destruct (last_route b p); reflexivity.
  - rewrite IH. destruct (last_route b p); reflexivity.
Qed.

Lemma last_route_none ops p : (forall h, ~ In (AddRoute p h) ops) -> last_route ops p = None.
Proof.
  induction ops as [|o ops IH]; intros H; cbn [last_route]; [reflexivity|].
  rewrite IH by (intros h Hin; apply (H h); right; exact Hin).
  destruct o as [q h| | |]; try reflexivity.
  destruct (str_eqb q p) eqn:E; [|reflexivity].
  apply str_eqb_eq in E. subst q. exfalso. apply (H h). left. reflexivity.
Qed.

Lemma last_route_some ops p h : In (AddRoute p h) ops -> last_route ops p <> None.
Proof.
  induction ops as [|o ops IH]; [intros []|]. cbn [last_route].
  destruct (last_route ops p); [discriminate|]. intros [->|H]; [|destruct (IH H eq_refl)].
  rewrite str_eqb_refl. discriminate.
Qed.

Lemma last_route_hid ops p h : last_route ops p = Some h -> In h (hids ops).
Proof.
  induction ops as [|o ops IH]; cbn [last_route]; [discriminate|].
  destruct (last_route ops p) as [h'|].
  - intros H. injection H as H. subst h'. specialize (IH eq_refl). destruct o; cbn [hids In]; tauto.
  - destruct o as [q h'| | |]; try discriminate.
    destruct (str_eqb q p); [|discriminate]. intros H. injection H as H. left. exact H.
Qed.

(** the mounts in the order [Router::get] tries them *)
Definition mounts (ops : list rop) : list (str * N) := regs_of ops ++ structs_of ops.

Lemma mounts_hid ops m : In m (mounts ops) -> In (snd m) (hids ops).
Proof.
  unfold mounts. rewrite in_app_iff. induction ops as [|o ops IH]; [intros [[]|[]]|].
  destruct o; cbn [regs_of structs_of hids In].
  - intros H. right. exact (IH H).
  - intros [[<-|H]|H]; [left; reflexivity|right; apply IH; left; exact H|right; apply IH; right; exact H].
  - intros [H|[<-|H]]; [right; apply IH; left; exact H|left; reflexivity|right; apply IH; right; exact H].
  - exact IH.
Qed.

Lemma run_ops_snoc ops o : run_ops (ops ++ [o]) = rstep (run_ops ops) o.
Proof. unfold run_ops. rewrite fold_left_app. reflexivity. Qed.

Definition mk_mount (mws : list N) (m : str * N) : entry :=
  mkEntry (fst m) (snd m) (wrap (snd m) mws).

(** the router [r] that the history [ops] leads to, field by field as a function of [ops].
    Every field but the first speaks of the middlewares as the state has them. *)
Record run_inv (ops : list rop) (r : router) : Prop := mkRunInv {
  ri_mws : r_mws r = mws_of ops;
  ri_regs : r_regs r = map (mk_mount (r_mws r)) (regs_of ops);
  ri_structs : r_structs r = map (mk_mount (r_mws r)) (structs_of ops);
  ri_map : forall p, map_get (r_map r) p
                     = option_map (fun h => mkEntry p h (wrap h (r_mws r))) (last_route ops p);
  ri_map_ok : Forall (fun e => e_disp e = wrap (e_raw e) (r_mws r)) (r_map r)
}.

(** a registration leaves the middlewares alone and adds its entry wrapped in them, a new
    middleware re-wraps every entry *)
Lemma run_inv_step ops r o : run_inv ops r -> run_inv (ops ++ [o]) (rstep r o).
Proof.
  intros [Hm Hr Hs Hg Hok]. constructor.
  - rewrite mws_of_app, <- Hm. destruct o; cbn [rstep r_mws mws_of]; rewrite ?app_nil_r; reflexivity.
  - rewrite regs_of_app. destruct o; cbn [rstep r_regs r_mws regs_of]; rewrite ?app_nil_r.
    + exact Hr.
    + rewrite map_app, <- Hr. reflexivity.
    + exact Hr.
    + rewrite Hr, map_map. reflexivity.
  - rewrite structs_of_app. destruct o; cbn [rstep r_structs r_mws structs_of]; rewrite ?app_nil_r.
    + exact Hs.
    + exact Hs.
    + rewrite map_app, <- Hs. reflexivity.
    + rewrite Hs, map_map. reflexivity.
  - intros p. rewrite last_route_app. destruct o as [q h| | |m]; cbn [rstep r_map r_mws last_route].
    + rewrite map_get_insert. cbn [e_key]. destruct (str_eqb q p) eqn:E; [|apply Hg].
      apply str_eqb_eq in E. subst q. reflexivity.
    + apply Hg.
    + apply Hg.
    + rewrite map_get_rebuild, Hg. destruct (last_route ops p); reflexivity.
  - destruct o; cbn [rstep r_map r_mws]; try exact Hok.
    + apply Forall_map_insert; [exact Hok|reflexivity].
    + apply Forall_map, Forall_forall. intros e _. reflexivity.
Qed.

Lemma run_inv_holds ops : run_inv ops (run_ops ops).
Proof.
  induction ops as [|o ops IH] using rev_ind; [repeat constructor|].
  rewrite run_ops_snoc. apply run_inv_step. exact IH.
Qed.

Lemma mw_uniform ops e :
  In e (all_entries (run_ops ops)) -> e_disp e = wrap (e_raw e) (mws_of ops).
Proof.
  destruct (run_inv_holds ops) as [Hm Hr Hs _ Hok]. rewrite <- Hm. unfold all_entries.
  rewrite !in_app_iff. intros [H|[H|H]].
  - rewrite Forall_forall in Hok. exact (Hok e H).
  - rewrite Hr in H. apply in_map_iff in H as [x [Hx _]]. subst e. reflexivity.
  - rewrite Hs in H. apply in_map_iff in H as [x [Hx _]]. subst e. reflexivity.
Qed.

Lemma lookup_spec ops p : lookup (run_ops ops) p = spec_lookup ops p.
Proof.
  destruct (run_inv_holds ops) as [Hm Hr Hs Hg _]. rewrite Hm in Hr, Hs, Hg.
  unfold lookup, router_get, spec_lookup. rewrite Hg.
  destruct (last_route ops p) as [h|]; cbn [option_map]; [reflexivity|].
  rewrite Hr, find_map. cbn [mk_mount e_key].
  destruct (find (fun m => matches (fst m) p) (regs_of ops)) as [[pre h]|]; cbn [option_map]; [reflexivity|].
  rewrite Hs, find_map. cbn [mk_mount e_key].
  destruct (find (fun m => matches (fst m) p) (structs_of ops)) as [[pre h]|]; cbn [option_map]; reflexivity.
Qed.

Lemma exact_wins ops1 p h ops2 :
  (forall h', ~ In (AddRoute p h') ops2) ->
  lookup (run_ops (ops1 ++ AddRoute p h :: ops2)) p
  = ARoute h (mws_of (ops1 ++ AddRoute p h :: ops2)).
Proof.
  intros H. rewrite lookup_spec. unfold spec_lookup.
  rewrite last_route_app. cbn [last_route]. rewrite (last_route_none ops2 p H), str_eqb_refl.
  reflexivity.
Qed.

Lemma exact_route_shadows_mounts ops p h :
  In (AddRoute p h) ops -> exists h', lookup (run_ops ops) p = ARoute h' (mws_of ops).
Proof.
  intros H. rewrite lookup_spec. unfold spec_lookup.
  destruct (last_route ops p) as [h'|] eqn:E; [exists h'; reflexivity|].
  destruct (last_route_some ops p h H E).
Qed.

Lemma no_cover_find l p : find (fun m => matches (fst m) p) l = None <-> no_cover l p.
Proof.
  rewrite find_none_iff. unfold no_cover. split; intros H m Hm; specialize (H m Hm).
  - rewrite <- matches_iff, H. discriminate.
  - apply matches_not_covered. exact H.
Qed.

Lemma no_cover_app l1 l2 p : no_cover (l1 ++ l2) p <-> no_cover l1 p /\ no_cover l2 p.
Proof.
  unfold no_cover. split.
  - intros H. split; intros m Hm; apply H, in_app_iff; auto.
  - intros [H1 H2] m Hm. apply in_app_iff in Hm as [Hm|Hm]; auto.
Qed.

Lemma registry_receives ops1 raw h ops2 p :
  let ops := ops1 ++ AddRegistry raw h :: ops2 in
  let pre := norm_prefix raw in
  last_route ops p = None -> no_cover (regs_of ops1) p -> covers_prop pre p ->
  lookup (run_ops ops) p
  = AReg h (mws_of ops) (Some (match remaining pre p with [] => [47] | rel => rel end)).
Proof.
  intros ops pre Hl Hn Hc. rewrite lookup_spec. unfold spec_lookup. rewrite Hl.
  unfold ops. rewrite regs_of_app, find_app, (proj2 (no_cover_find _ _) Hn). cbn [regs_of find fst].
  apply matches_iff in Hc. fold pre. rewrite Hc, (registry_pointer_covered pre p Hc). reflexivity.
Qed.

Lemma struct_receives ops1 raw h ops2 p :
  let ops := ops1 ++ AddStruct raw h :: ops2 in
  let root := norm_root raw in
  last_route ops p = None -> no_cover (regs_of ops) p -> no_cover (structs_of ops1) p ->
  covers_prop root p ->
  lookup (run_ops ops) p = AStruct h (mws_of ops) (Some (struct_segments (remaining root p))).
Proof.
  intros ops root Hl Hnr Hn Hc. rewrite lookup_spec. unfold spec_lookup. rewrite Hl.
  rewrite (proj2 (no_cover_find _ _) Hnr).
  unfold ops. rewrite structs_of_app, find_app, (proj2 (no_cover_find _ _) Hn). cbn [structs_of find fst].
  apply matches_iff in Hc. fold root. rewrite Hc, (struct_relative_covered root p Hc). reflexivity.
Qed.

Lemma spec_lookup_ext ops ops' p :
  last_route ops p = last_route ops' p -> mws_of ops = mws_of ops' ->
  find (fun m => matches (fst m) p) (regs_of ops) = find (fun m => matches (fst m) p) (regs_of ops') ->
  find (fun m => matches (fst m) p) (structs_of ops) = find (fun m => matches (fst m) p) (structs_of ops') ->
  spec_lookup ops p = spec_lookup ops' p.
Proof. unfold spec_lookup. intros -> -> -> ->. reflexivity. Qed.

Lemma op_ignored ops1 o ops2 p :
  mws_of [o] = [] -> last_route [o] p = None ->
  find (fun m => matches (fst m) p) (regs_of [o]) = None ->
  find (fun m => matches (fst m) p) (structs_of [o]) = None ->
  lookup (run_ops (ops1 ++ o :: ops2)) p = lookup (run_ops (ops1 ++ ops2)) p.
Proof.
  intros Hm Hl Hr Hs. rewrite !lookup_spec. change (o :: ops2) with ([o] ++ ops2). apply spec_lookup_ext.
  - rewrite !last_route_app, Hl. destruct (last_route ops2 p); reflexivity.
  - rewrite !mws_of_app, Hm. reflexivity.
  - rewrite !regs_of_app, !find_app, Hr. reflexivity.
  - rewrite !structs_of_app, !find_app, Hs. reflexivity.
Qed.

Lemma answered_by_spec ops p :
  answered_by (spec_lookup ops p)
  = match last_route ops p with
    | Some h => Some h
    | None => option_map snd (find (fun m => matches (fst m) p) (mounts ops))
    end.
Proof.
  unfold spec_lookup, mounts. rewrite find_app. destruct (last_route ops p); [reflexivity|].
  destruct (find _ (regs_of ops)) as [[pre h]|]; [reflexivity|].
  destruct (find _ (structs_of ops)) as [[pre h]|]; reflexivity.
Qed.

Lemma first_match_iff (f : str * N -> bool) l1 k h l2 :
  ~ In h (map snd (l1 ++ l2)) ->
  (option_map snd (find f (l1 ++ (k, h) :: l2)) = Some h <-> find f l1 = None /\ f (k, h) = true).
Proof.
  intros Hf. rewrite map_app, in_app_iff in Hf. rewrite find_app. cbn [find].
  destruct (find f l1) as [[k' h']|] eqn:E1.
  - split; [|intros [H _]; discriminate]. intros [= ->]. destruct Hf. left.
    apply find_some in E1 as [E1 _]. exact (in_map snd _ _ E1).
  - destruct (f (k, h)); [split; [split|]; reflexivity|]. split; [|intros [_ H]; discriminate].
    destruct (find f l2) as [[k' h']|] eqn:E2; [|discriminate]. intros [= ->]. destruct Hf. right.
    apply find_some in E2 as [E2 _]. exact (in_map snd _ _ E2).
Qed.

(** [o] registers the mount [(k, h)], which stands between [l1] and [l2] in the
    order of precedence.  [h] occurs once in the history, so no route and no
    other mount can answer with it. *)
Lemma mount_answers_iff ops1 o ops2 p k h l1 l2 :
  NoDup (hids (ops1 ++ o :: ops2)) -> hids [o] = [h] -> last_route [o] p = None ->
  mounts (ops1 ++ o :: ops2) = l1 ++ (k, h) :: l2 -> mounts (ops1 ++ ops2) = l1 ++ l2 ->
  (answered_by (lookup (run_ops (ops1 ++ o :: ops2)) p) = Some h
   <-> last_route (ops1 ++ o :: ops2) p = None /\ no_cover l1 p /\ covers_prop k p).
Proof.
  intros Hnd Ho Hl Hm Hm'. rewrite lookup_spec, answered_by_spec, Hm.
  change (o :: ops2) with ([o] ++ ops2) in *.
  assert (Hfresh : ~ In h (hids (ops1 ++ ops2))).
  { rewrite !hids_app, Ho in Hnd. rewrite hids_app. exact (NoDup_remove_2 _ _ _ Hnd). }
  replace (last_route (ops1 ++ [o] ++ ops2) p) with (last_route (ops1 ++ ops2) p)
    by (rewrite !last_route_app, Hl; destruct (last_route ops2 p); reflexivity).
  destruct (last_route (ops1 ++ ops2) p) as [h'|] eqn:E.
  - split; [|intros [H _]; discriminate]. intros [= ->]. destruct (Hfresh (last_route_hid _ _ _ E)).
  - rewrite first_match_iff; [cbn [fst]; rewrite no_cover_find, matches_iff; tauto|]. rewrite <- Hm'. intros H.
    apply in_map_iff in H as (m & <- & H). exact (Hfresh (mounts_hid _ _ H)).
Qed.

Lemma registry_receives_iff ops1 raw h ops2 p :
  let ops := ops1 ++ AddRegistry raw h :: ops2 in
  NoDup (hids ops) ->
  (answered_by (lookup (run_ops ops) p) = Some h
   <-> last_route ops p = None /\ no_cover (regs_of ops1) p /\ covers_prop (norm_prefix raw) p).
Proof.
  intros ops Hnd.
  apply mount_answers_iff with (l2 := regs_of ops2 ++ structs_of (ops1 ++ ops2)); try reflexivity.
  - exact Hnd.
  - unfold mounts. rewrite regs_of_app, !structs_of_app, <- app_assoc. reflexivity.
  - unfold mounts. rewrite regs_of_app, <- app_assoc. reflexivity.
Qed.

Lemma struct_receives_iff ops1 raw h ops2 p :
  let ops := ops1 ++ AddStruct raw h :: ops2 in
  NoDup (hids ops) ->
  (answered_by (lookup (run_ops ops) p) = Some h
   <-> last_route ops p = None /\ no_cover (regs_of ops) p /\ no_cover (structs_of ops1) p /\
       covers_prop (norm_root raw) p).
Proof.
  intros ops Hnd. rewrite <- (and_assoc (no_cover _ p)), <- no_cover_app.
  apply mount_answers_iff with (l2 := structs_of ops2); try reflexivity.
  - exact Hnd.
  - unfold mounts, ops. rewrite structs_of_app, app_assoc. reflexivity.
  - unfold mounts, ops. rewrite !regs_of_app, structs_of_app, app_assoc. reflexivity.
Qed.

Lemma ok_answer_spec ops p : ok_answer ops p (spec_lookup ops p) = true.
Proof.
  unfold ok_answer, spec_lookup.
  destruct (last_route ops p) as [h|]; [rewrite N.eqb_refl, listN_eqb_refl; reflexivity|].
  rewrite !(find_ext (fun m => covers (fst m) p) (fun m => matches (fst m) p))
    by (intros x; symmetry; apply matches_covers).
  destruct (find (fun m => matches (fst m) p) (regs_of ops)) as [[pre h]|] eqn:E.
  - apply find_some in E as [_ E]. cbn [fst] in E.
    rewrite (registry_pointer_covered pre p E), N.eqb_refl, listN_eqb_refl, str_eqb_refl. reflexivity.
  - destruct (find (fun m => matches (fst m) p) (structs_of ops)) as [[pre h]|] eqn:E1; [|reflexivity].
    apply find_some in E1 as [_ E1]. cbn [fst] in E1.
    rewrite (struct_relative_covered pre p E1), N.eqb_refl, listN_eqb_refl. cbn [andb].
    destruct (well_escaped (remaining pre p) && pointer_shaped (remaining pre p)) eqn:Eq; [|reflexivity].
    apply andb_true_iff in Eq as [Hw Hs].
    rewrite (render_struct_segments _ Hw Hs). apply str_eqb_refl.
Qed.

Lemma ok_model_C07 ops paths : ok_C07 ops paths (model_C07 ops paths) = true.
Proof.
  unfold ok_C07, model_C07. induction paths as [|p paths IH]; cbn [map ok_answers]; [reflexivity|].
  rewrite lookup_spec, ok_answer_spec, IH. reflexivity.
Qed.

Lemma ok_answer_struct_sound ops p h m segs :
  ok_answer ops p (AStruct h m (Some segs)) = true ->
  exists pre, In (pre, h) (structs_of ops) /\ covers_prop pre p /\ m = mws_of ops /\
    (well_escaped (remaining pre p) = true -> pointer_shaped (remaining pre p) = true ->
     render segs = remaining pre p).
Proof.
  unfold ok_answer. destruct (last_route ops p); [discriminate|].
  destruct (find (fun m => covers (fst m) p) (regs_of ops)) as [[pre' h']|]; [discriminate|].
  destruct (find (fun m => covers (fst m) p) (structs_of ops)) as [[pre h']|] eqn:E; [|discriminate].
  apply find_some in E as [E1 E2]. cbn [fst] in E2.
  intros H. apply andb_true_iff in H as [H H3]. apply andb_true_iff in H as [H1 H2].
  apply N.eqb_eq in H1. subst h'. apply listN_eqb_eq in H2.
  exists pre. split; [exact E1|]. split; [apply covers_iff; exact E2|]. split; [exact H2|].
  intros Hw Hs. rewrite Hw, Hs in H3. cbn [andb] in H3. apply str_eqb_eq in H3. exact H3.
Qed.

Lemma all_same_iff r rs : all_same r rs = true <-> forall x, In x rs -> x = r.
Proof.
  induction rs as [|y rs IH]; cbn [all_same In].
  - split; [intros _ x []|reflexivity].
  - rewrite andb_true_iff, str_eqb_eq, IH. split.
    + intros [H1 H2] x [Hx|Hx]; [subst; reflexivity|exact (H2 x Hx)].
    + intros H. split; [apply H; left; reflexivity|]. intros x Hx. apply H. right. exact Hx.
Qed.

Lemma ok_C07_pair_iff rs :
  ok_C07_pair rs = true <-> exists r, rs <> [] /\ forall x, In x rs -> x = r.
Proof.
  destruct rs as [|r rs]; cbn [ok_C07_pair].
  - split; [discriminate|]. intros [r [H _]]. contradiction.
  - rewrite all_same_iff. split.
    + intros H. exists r. split; [discriminate|]. intros x [Hx|Hx]; [subst; reflexivity|exact (H x Hx)].
    + intros [r' [_ H]] x Hx. rewrite (H x (or_intror Hx)). symmetry. apply H. left. reflexivity.
Qed.
