(** The lock structure of the [Registry] methods that bin/rs2v regenerates from /repo/src/registry.rs
    on every run (Gen/RegLocksGen.v) is the model's: each method is an [lplan]
    (Base/GenRegLocksPrelude.v) whose run, other threads changing the state wherever this one holds no
    guard, is ONE section doing the model's step -- or, for [dispatch_with_ctx] with a body, the two
    sections of the thread model [csection], the user callable invoked with NO guard held.  A method
    that could not be translated is [None] and its lemma degrades to [True]. *)
From RepeV Require Import Model.Json Model.Registry Proofs.JsonProofs Base.GenRegLocksPrelude Gen.RegLocksGen.
From RepeV Require Export Proofs.GenAgreeBase.

Definition exec (env : nat -> rstate -> rstate) (busy : nat -> bool) (p : lplan) (s : rstate) : rstate * list tev * rout :=
  run model_user env busy 0 false p s.

(** ONE section under lock [m] whose effect and answer are the model's step [op] on the state the
    thread finds when it gets the lock *)
Definition section_of (m : lmode) (op : rop) (env : nat -> rstate -> rstate) (s : rstate) : rstate * list tev * rout :=
  let s1 := env 0%nat s in
  let '(s2, r, _) := rstep None s1 op in (s2, [TAcq m; TRel], r).

(** [dispatch_with_ctx] with a body: nothing is locked when the pointer is malformed; else the
    DECISION [d] is the lookup under the read lock in the state [s1] found then; a callable is
    invoked after the guard is gone and nothing else is locked; without a callable the pointer is
    parsed (no lock) and the WRITE section runs the model's [dispatch_decided] on the state [s2]
    found when the write lock is granted *)
Definition dispatch_pair (p : str) (payload : json) (env : nat -> rstate -> rstate) (s : rstate) : rstate * list tev * rout :=
  match canonical_key p with
  | Err e => (s, [], RErr e)
  | Ok key =>
      let s1 := env 0%nat s in
      let d := fget (r_funs s1) key in
      match d with
      | Some fid =>
          let '(s3, r, _) := dispatch_decided s1 p payload d in (s3, [TAcq LRd; TRel; TCall fid payload], r)
      | None =>
          match parse_pointer p with
          | Err e => (s1, [TAcq LRd; TRel], RErr e)
          | Ok _ =>
              let s2 := env 1%nat s1 in
              let '(s3, r, _) := dispatch_decided s2 p payload d in (s3, [TAcq LRd; TRel; TAcq LWr; TRel], r)
          end
      end
  end.

(** [resolve_mut], then [as_object_mut().ok_or_else(..)?], then the insert loop: the model's [merge_ptr] *)
Lemma merge_ptr_upd segs : forall cur o,
  merge_ptr cur segs o =
  match resolve cur segs with
  | Err e => Err e
  | Ok (JObj _) => Ok (upd_at cur segs (merge_into o))
  | Ok _ => Err EPathNotFound
  end.
Proof.
  induction segs as [|s rest IH]; intros cur o; cbn [merge_ptr resolve upd_at].
  - destruct cur; reflexivity.
  - destruct (child cur s) as [c|e]; [|reflexivity].
    rewrite IH. destruct (resolve c rest) as [[]|]; reflexivity.
Qed.

(** [ensure_object_parent] (the model's [reg_at .. None]), then the insert of the last segment into the
    map it returned: the model's [reg_at .. (Some v)] *)
Lemma reg_at_insert rest : forall s m v,
  match l_last (s :: rest) with
  | Some l => upd_at (JObj (reg_at m (s :: rest) None)) (removelast (s :: rest)) (insert_into l v) = JObj (reg_at m (s :: rest) (Some v))
  | None => False
  end.
Proof.
  induction rest as [|s2 rest IH]; intros s m v; [reflexivity|].
  set (cm := match oget m s with Some (JObj cm) => cm | _ => [] end).
  specialize (IH s2 cm v).
  change (l_last (s :: s2 :: rest)) with (l_last (s2 :: rest)).
  destruct (l_last (s2 :: rest)) as [l|]; [|exact IH].
  change (removelast (s :: s2 :: rest)) with (s :: removelast (s2 :: rest)).
  change (reg_at m (s :: s2 :: rest)) with (fun ins => oset m s (JObj (reg_at cm (s2 :: rest) ins))).
  (* the inner [reg_at] becomes a variable [X]: [cbn] below then unfolds the outer step only, and
     [IH] is an equation about [X] that can be rewritten with *)
  cbv beta. generalize dependent (reg_at cm (s2 :: rest)). intros X IH.
  cbn [upd_at child]. rewrite oget_oset, str_eqb_refl. cbn [put_child]. now rewrite IH, oset_oset.
Qed.

Lemma of_cres_model fid arg : of_cres (model_user fid arg) = fun_out fid arg.
Proof. unfold model_user, fun_out. destruct (fid mod 4 =? 3)%N; reflexivity. Qed.

Lemma reg_set_root_agrees :
  match gen_reg_set_root with Some f => forall env busy s v, exec env busy (f v) s = section_of LWr (SetRoot v) env s | None => True end.
Proof. gen_start. all: intros env busy s v; reflexivity. Qed.

Lemma reg_merge_root_agrees :
  match gen_reg_merge_root with Some f => forall env busy s o, exec env busy (f o) s = section_of LWr (MergeRoot o) env s | None => True end.
Proof. gen_start. all: intros env busy s o; reflexivity. Qed.

Lemma reg_read_value_agrees :
  match gen_reg_read_value with Some f => forall env busy s p, exec env busy (f p) s = section_of LRd (ReadValue p) env s | None => True end.
Proof.
  gen_start. all: intros env busy s p; unfold exec, section_of; cbn [run rstep]; cbv zeta; unfold read_value.
  all: destruct (parse_pointer p) as [segs|e]; reflexivity.
Qed.

Lemma reg_merge_at_agrees :
  match gen_reg_merge_at with Some f => forall env busy s p o, exec env busy (f p o) s = section_of LWr (MergeAt p o) env s | None => True end.
Proof.
  gen_start. all: intros env busy s p o; unfold exec, section_of; cbn [run rstep]; cbv zeta; unfold merge_at, nolog.
  all: destruct (parse_registration_path p) as [[|s0 segs]|e]; try reflexivity.
  all: cbn [l_is_empty r_root r_funs set_r_root]; rewrite merge_ptr_upd.
  all: destruct (resolve (r_root (env 0%nat s)) (s0 :: segs)) as [[]|e]; reflexivity.
Qed.

Lemma reg_register_value_agrees :
  match gen_reg_register_value with Some f => forall env busy s p v, exec env busy (f p v) s = section_of LWr (RegValue p v) env s | None => True end.
Proof.
  gen_start. all: intros env busy s p v; unfold exec, section_of; cbn [run rstep]; cbv zeta; unfold register_value, nolog.
  all: destruct (parse_registration_path p) as [[|s0 segs]|e]; try reflexivity.
  all: cbn [l_is_empty r_root r_funs set_r_root].
  all: pose proof (reg_at_insert segs s0 (obj_of (r_root (env 0%nat s))) v) as H.
  all: destruct (l_last (s0 :: segs)) as [l|]; [|contradiction]; rewrite H; reflexivity.
Qed.

Lemma reg_register_function_arc_agrees :
  match gen_reg_register_function_arc with
  | Some f => forall env busy s p fid, exec env busy (f p fid) s = section_of LWr (RegFun p fid) env s
  | None => True
  end.
Proof.
  gen_start. all: intros env busy s p fid; unfold exec, section_of; cbn [run rstep]; cbv zeta; unfold register_function, nolog.
  all: destruct (parse_registration_path p) as [[|s0 segs]|e]; reflexivity.
Qed.

Lemma reg_dispatch_read_agrees :
  match gen_reg_dispatch_with_ctx with
  | Some f => forall env busy s p,
      exec env busy (f p None) s =
      match canonical_key p with
      | Err e => (s, [], RErr e)
      | Ok _ => section_of LRd (Dispatch p None) env s
      end
  | None => True
  end.
Proof.
  gen_start. all: intros env busy s p; unfold exec, section_of; cbn [rstep]; unfold dispatch.
  all: destruct (canonical_key p) as [key|e]; [|reflexivity].
  all: cbn [run o_is_none]; cbv zeta.
  all: destruct (fget (r_funs (env 0%nat s)) key) as [fid|]; cbn [o_is_some]; [reflexivity|].
  all: destruct (parse_pointer p) as [segs|e]; reflexivity.
Qed.

Lemma reg_dispatch_write_agrees :
  match gen_reg_dispatch_with_ctx with
  | Some f => forall env busy s p payload, exec env busy (f p (Some payload)) s = dispatch_pair p payload env s
  | None => True
  end.
Proof.
  gen_start. all: intros env busy s p payload; unfold exec, dispatch_pair.
  all: destruct (canonical_key p) as [key|e]; [|reflexivity].
  all: cbn [run o_is_none]; cbv zeta.
  all: destruct (fget (r_funs (env 0%nat s)) key) as [fid|]; cbn [run dispatch_decided]; cbv zeta.
  all: try (rewrite of_cres_model; reflexivity).
  all: unfold dispatch_write; destruct (parse_pointer p) as [[|s0 segs]|e]; cbn [run l_is_empty]; cbv zeta; try reflexivity.
  all: try (destruct payload; reflexivity).
  all: cbn [r_root r_funs set_r_root]; destruct (set_ptr _ _ _); reflexivity.
Qed.

(** [dispatch_pair] is the two sections of the thread model ([csection]): the decision, then
    [dispatch_decided] with that decision on whatever state it finds *)
Lemma dispatch_pair_csection p payload rest key :
  canonical_key p = Ok key ->
  (forall s1, csection s1 (mkT None (Dispatch p (Some payload) :: rest)) =
              (s1, mkT (Some (fget (r_funs s1) key)) (Dispatch p (Some payload) :: rest), None)) /\
  (forall s2 d, csection s2 (mkT (Some d) (Dispatch p (Some payload) :: rest)) =
                let '(s3, r, lg) := dispatch_decided s2 p payload d in (s3, mkT None rest, Some (Dispatch p (Some payload), r, lg))).
Proof.
  intros Hk. split; [intros s1|intros s2 d]; unfold csection; cbn [ct_todo ct_dec]; [rewrite Hk|]; reflexivity.
Qed.

(** the calls the model logs are the invocations in the trace *)
Lemma dispatch_pair_calls p payload env s :
  calls_of (snd (fst (dispatch_pair p payload env s))) =
  match canonical_key p with
  | Err _ => []
  | Ok key => match fget (r_funs (env 0%nat s)) key with Some fid => [(fid, payload)] | None => [] end
  end.
Proof.
  unfold dispatch_pair. destruct (canonical_key p) as [key|e]; [|reflexivity]. cbv zeta.
  destruct (fget _ key) as [fid|]; [reflexivity|].
  destruct (parse_pointer p); [|reflexivity]. destruct (dispatch_decided _ _ _ _) as [[s3 r] lg]. reflexivity.
Qed.
