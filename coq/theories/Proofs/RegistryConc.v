(** Concurrent requests on a fixed function table are serialised: in the
    interleaving model every schedule yields the answers and the final state of
    the sequential execution of the requests in the order of their completing
    sections, and that order respects every thread's program order. *)
From RepeV Require Import Model.Json Model.Registry Proofs.JsonProofs Proofs.PointerProofs
  Proofs.RegistryProofs Proofs.RegistryLaws.

Definition ev_tid (e : event) : nat := fst (fst (fst e)).
Definition ev_op (e : event) : rop := snd (fst (fst e)).
Definition ev_out (e : event) : rout * calllog := (snd (fst e), snd e).

(** [set_nth l i x] of Model/Registry.v puts [x] in the place of thread [i] (Model/JsonPtr.v has a
    [set_nth] of its own, with the arguments in another order) *)
Lemma nth_error_set_nth {A} (l : list A) y : forall i j x,
  nth_error l j = Some x -> nth_error (set_nth l i y) j = Some (if Nat.eqb i j then y else x).
Proof.
  induction l as [|z l IH]; intros [|i] [|j] x H; cbn in *; try discriminate; try assumption; [reflexivity|].
  now apply IH.
Qed.

Lemma Forall_set_nth {A} (P : A -> Prop) (l : list A) : forall i y, Forall P l -> P y -> Forall P (set_nth l i y).
Proof.
  induction l as [|z l IH]; intros [|i] y F Py; cbn; try assumption; inversion F; subst; constructor; auto.
Qed.

(** a thread has only requests left, and what it holds between its two sections
    is the lookup of its head request's key in the (fixed) table *)
Definition tinv (funs : ftab) (t : cthread) : Prop :=
  forallb is_request (ct_todo t) = true /\
  match ct_dec t, ct_todo t with
  | None, _ => True
  | Some d, Dispatch p (Some _) :: _ =>
      match canonical_key p with Ok key => d = fget funs key | Err _ => False end
  | Some _, _ => False
  end.

Lemma csection_step st t :
  tinv (r_funs st) t ->
  let '(st', t', ev) := csection st t in
  r_funs st' = r_funs st /\ tinv (r_funs st) t' /\
  match ev with
  | None => st' = st /\ ct_todo t' = ct_todo t
  | Some (op, r, lg) => ct_todo t = op :: ct_todo t' /\ rstep None st op = (st', r, lg)
  end.
Proof.
  destruct t as [dec [|op rest]]; intros [Rq I]; [now repeat split|].
  cbn [ct_todo forallb] in Rq. apply andb_true_iff in Rq as [Rop Rrest].
  assert (Fresh : tinv (r_funs st) (mkT None rest)) by (split; [exact Rrest|exact Logic.I]).
  assert (F : r_funs (fst (fst (rstep None st op))) = r_funs st)
    by (destruct op; try discriminate Rop; [reflexivity|apply dispatch_funs]).
  destruct op as [| | | | |p|p [payload|]|]; try discriminate Rop; unfold csection; cbn [ct_todo ct_dec].
  1, 3: destruct (rstep None st _) as [[st' r] lg] eqn:Q; destruct dec; now repeat split.
  cbn [ct_dec ct_todo] in I. destruct dec as [d|], (canonical_key p) as [key|e] eqn:K; [subst d|contradiction| |].
  - (* second section *)
    assert (Q : rstep None st (Dispatch p (Some payload)) = dispatch_decided st p payload (fget (r_funs st) key))
      by (cbn [rstep]; unfold dispatch; now rewrite K).
    rewrite Q in F. destruct (dispatch_decided st p payload _) as [[st' r] lg]. now repeat split.
  - (* first section: the lookup *)
    repeat split; [exact Rrest|]. cbn [ct_dec ct_todo]. now rewrite K.
  - repeat split; [exact Rrest|]. cbn [rstep]. unfold dispatch. now rewrite K.
Qed.

Lemma crun_sequential sched : forall st ths st' ths' evs,
  Forall (tinv (r_funs st)) ths ->
  crun st ths sched = (st', ths', evs) ->
  seq_run st (map ev_op evs) = (st', map ev_out evs) /\
  (forall k t, nth_error ths k = Some t ->
     exists t', nth_error ths' k = Some t' /\
                ct_todo t = map ev_op (filter (fun e => Nat.eqb (ev_tid e) k) evs) ++ ct_todo t').
Proof.
  induction sched as [|i sched IH]; intros st ths st' ths' evs I H; cbn [crun] in H.
  { injection H as <- <- <-. split; [reflexivity|]. intros k t Nk. now exists t. }
  destruct (nth_error ths i) as [ti|] eqn:Nt; [|exact (IH st ths st' ths' evs I H)].
  pose proof (csection_step st ti (proj1 (Forall_forall _ _) I ti (nth_error_In _ _ Nt))) as C.
  destruct (csection st ti) as [[st1 t1] ev]. destruct C as [F [I1 C]].
  destruct (crun st1 (set_nth ths i t1) sched) as [[st2 ths2] evs2] eqn:Run. injection H as <- <- <-.
  rewrite <- F in I, I1. destruct (IH st1 _ st2 ths2 evs2 (Forall_set_nth _ _ i t1 I I1) Run) as [Seq Ord]. split.
  - destruct ev as [[[op r] lg]|]; [|now destruct C as [-> _]].
    destruct C as [_ C]. cbn [map ev_op ev_out seq_run fst snd]. now rewrite C, Seq.
  - intros k t Nk. destruct (Ord k _ (nth_error_set_nth ths t1 i k t Nk)) as [t' [N' E']].
    exists t'. split; [exact N'|]. destruct (Nat.eqb_spec i k) as [->|Hne].
    + rewrite Nt in Nk. injection Nk as <-. destruct ev as [[[op r] lg]|].
      * destruct C as [C _]. cbn [filter ev_tid fst]. rewrite Nat.eqb_refl. cbn [map ev_op fst snd app].
        now rewrite C, E'.
      * destruct C as [_ C]. now rewrite <- C.
    + destruct ev as [[[op r] lg]|]; [|exact E']. cbn [filter ev_tid fst].
      destruct (Nat.eqb_spec i k); [contradiction|exact E'].
Qed.

Definition fresh_requests (ths : list cthread) : Prop :=
  Forall (fun t => ct_dec t = None /\ forallb is_request (ct_todo t) = true) ths.

Lemma fresh_tinv funs ths : fresh_requests ths -> Forall (tinv funs) ths.
Proof. apply Forall_impl. intros t [D R]. split; [exact R|now rewrite D]. Qed.
