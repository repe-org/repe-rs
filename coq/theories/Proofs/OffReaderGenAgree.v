(** The Gallina rendering of the synchronous part of spawn_off_reader -- the admission decision --
    that bin/rs2v regenerates from /repo/src/websocket_server.rs on every run
    (Gen/OffReaderGen.v) is a decision written out here on the model's test [saturated]
    (Model/OffReader.v: property C16): [spawn_off_reader_agrees].  The model's own step is not
    composed with it; what [emit] and [next_running] do on the arrival of an off-reader request is
    stated beside it, in the same three cases ([arrive_offreader_model], [reply_of_rejection]), for
    the reader to compare.  The closure handed to tokio::task::spawn_blocking is not translated
    (that is where the rendering is cut: it only counts the spawn).  [None] (not translated)
    degrades to [True].

    The rendering threads [reports] (what was handed to the error hooks), [held] (permits of the
    per-connection semaphore that are out), [outbox] (the outbound channel) and [spawned] (blocking
    tasks started); [sem] is [Some cap] / [None] ([with_offreader_limit(0)]: no semaphore). *)
From RepeV Require Import Model.OffReader.
From RepeV Require Import Base.GenOutboundPrelude Gen.ErrMsgGen Gen.OffReaderGen.
From RepeV Require Export Proofs.ErrMsgGenAgree.
From RepeV Require Export Proofs.GenAgreeBase.

Local Open Scope N_scope.

(** "off-reader dispatch limit reached; retry" *)
Definition saturated_text : list byte :=
  [111; 102; 102; 45; 114; 101; 97; 100; 101; 114; 32; 100; 105; 115; 112; 97; 116; 99; 104; 32; 108; 105; 109; 105; 116; 32;
   114; 101; 97; 99; 104; 101; 100; 59; 32; 114; 101; 116; 114; 121].
Definition rejection (request : message) : message := error_response_like request ERRC_ResourceExhausted saturated_text.
(** what the model records of a queued message: its id and error code *)
Definition reply_of (m : message) : OffReader.resp := (h_id (m_hdr m), h_ec (m_hdr m)).

(** the decision: with the cap saturated ([held] permits out of [cap]) ONE saturation report; a
    notify is dropped (keep reading), a request gets the ResourceExhausted reply (built by the rendering of
    create_error_response_like: Gen/ErrMsgGen.v) queued and the reader goes on iff the outbound channel took it; nothing is spawned and no permit moves.
    Otherwise a permit is taken (when there is a semaphore), ONE blocking task is spawned, nothing
    is reported or queued, keep reading. *)
Lemma spawn_off_reader_agrees :
  match gen_spawn_off_reader with
  | Some f => forall reports held outbox spawned sem request notify,
      HEADER_SIZE + lenN (m_query request) + lenN saturated_text < two64 ->
      f reports held outbox spawned sem request notify =
      if saturated (mkSt held sem []) then
        if notify then Ok (true, reports ++ [R_Saturation], held, outbox, spawned)
        else Ok (res_is_ok (fst (oc_send outbox (rejection request))), reports ++ [R_Saturation], held,
                 snd (oc_send outbox (rejection request)), spawned)
      else Ok (true, reports, match sem with Some _ => held + 1 | None => held end, outbox, spawned + 1)
  | None => True
  end.
Proof.
  pose proof create_error_response_like_agrees as Hm. gen_start.
  all: intros reports held outbox spawned sem request notify Hlen; callee Hm.
  all: fold saturated_text; rewrite Hm by exact Hlen; fold (rejection request).
  all: unfold saturated, sem_try_acquire; cbn [cap running bind].
  all: destruct sem as [c|]; [|reflexivity].
  all: rewrite (N.leb_antisym held c); destruct (held <? c); cbn [negb]; [reflexivity|].
  all: destruct notify; [reflexivity|]. all: destruct (oc_send outbox (rejection request)); reflexivity.
Qed.

(** the model's step on the arrival of an off-reader request, spelled out for comparison: the
    reply (if any) is the rejection's id and code, a permit is taken iff not saturated *)
Lemma arrive_offreader_model nmw s r : execution (dispatched nmw (r_route r)) = OffReader ->
  emit nmw s (Arrive r) = (if saturated s then if r_notify r then [] else [(r_id r, EC_RESOURCE_EXHAUSTED)] else []) /\
  next_running nmw s (Arrive r) = (if saturated s then running s else running s + 1).
Proof. intros H. unfold emit, next_running. rewrite H. split; reflexivity. Qed.

Lemma reply_of_rejection request : reply_of (rejection request) = (h_id (m_hdr request), EC_RESOURCE_EXHAUSTED).
Proof. reflexivity. Qed.
