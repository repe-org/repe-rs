(** Proofs about the fleet retry loop (Model/Fleet.v).  [counts] says what the
    loop of any table does to the attempt counter and the script;
    [attempt_results] lists the attempts of the specification loop;
    [loop_is_spec], [call_is_spec]: the loop is that specification, which is
    how the oracle theorem gets at it. *)
From RepeV Require Import Model.Fleet Gen.Tables Proofs.TablesC01.

Lemma source_tables_agree :
  agrees src_fleet_retryable retry_table /\ agrees src_async_fleet_retryable retry_table.
Proof. (* [agrees None _] is [True]: a table that was not read degrades its conjunct *)
  split; vm_compute; first [reflexivity | exact I].
Qed.

Lemma retryable_classify k :
  retryable_with retry_table k = match classify (RErr k) with Transport => true | _ => false end.
Proof. destruct k; reflexivity. Qed.

Lemma retryable_iff_transport k : retryable k = true <-> classify (RErr k) = Transport.
Proof. unfold retryable. rewrite retryable_classify. destruct (classify (RErr k)); split; congruence. Qed.

Lemma loop_is_spec f : forall s c made l,
  retry_loop retry_table f s c made l = spec_loop f s c made l.
Proof.
  induction f as [|f IH]; intros s c made l; cbn [retry_loop spec_loop]; [reflexivity|].
  destruct (next_b s) as [b s']. destruct (attempt b c) as [r c1].
  destruct r as [|k]; [reflexivity|].
  rewrite retryable_classify.
  destruct (classify (RErr k)); [apply IH | reflexivity | reflexivity].
Qed.

Lemma call_is_spec max script c : call max script c = spec_call max script c.
Proof. unfold call, spec_call. apply loop_is_spec. Qed.

Lemma next_b_tl s b s' : next_b s = (b, s') -> s' = tl s.
Proof. destruct s; intros [= _ <-]; reflexivity. Qed.

Lemma skipn_S_tl {A} k (s : list A) : skipn (S k) s = skipn k (tl s).
Proof. destruct s; [destruct k|]; reflexivity. Qed.

(** [o] ends a loop that started with [made] attempts behind it, fuel [f] and
    script [s]: it made [k] more, [k] within the fuel and not zero unless the
    fuel is, and used up exactly [k] entries of the script *)
Definition counts (f : nat) (s : list behaviour) (made : N) (o : call_out) : Prop :=
  exists k, (k <= f)%nat /\ (f <> 0 -> k <> 0)%nat /\
    co_attempts o = made + N.of_nat k /\ co_script o = skipn k s.

Lemma loop_counts tbl f : forall s c made l, counts f s made (retry_loop tbl f s c made l).
Proof.
  induction f as [|f IH]; intros s c made l; cbn [retry_loop].
  - exists 0%nat. rewrite N.add_0_r. auto.
  - destruct (next_b s) as [b s'] eqn:Hn. apply next_b_tl in Hn. subst s'.
    assert (Hstop : forall r c1, counts (S f) s made (mkCallOut (made + 1) r c1 (tl s))).
    { intros r c1. exists 1%nat. rewrite skipn_S_tl. auto using le_n_S, Nat.le_0_l. }
    destruct (attempt b c) as [[|e] c1]; [apply Hstop|].
    destruct (retryable_with tbl e); [|apply Hstop].
    destruct (IH (tl s) CNone (made + 1) (RErr e)) as (k & Hk & _ & Ha & Hs).
    exists (S k). rewrite Ha, Hs, skipn_S_tl, Nat2N.inj_succ, <- N.add_1_l, N.add_assoc.
    auto using le_n_S.
Qed.

(** for a whole call, in the terms the oracle counts in *)
Lemma call_counts tbl max s c l :
  co_attempts (retry_loop tbl max s c 0 l) <= N.of_nat max /\
  ((1 <= max)%nat -> 1 <= co_attempts (retry_loop tbl max s c 0 l)) /\
  N.of_nat (length (co_script (retry_loop tbl max s c 0 l)))
  = N.of_nat (length s) - co_attempts (retry_loop tbl max s c 0 l).
Proof.
  destruct (loop_counts tbl max s c 0 l) as (k & Hk & H0 & -> & ->).
  rewrite skipn_length. lia.
Qed.

Lemma loop_script_nil tbl f c made l : co_script (retry_loop tbl f [] c made l) = [].
Proof. destruct (loop_counts tbl f [] c made l) as (k & _ & _ & _ & ->). apply skipn_nil. Qed.

Lemma attempts_le_max max script c : co_attempts (call max script c) <= N.of_nat max.
Proof. apply call_counts. Qed.

Fixpoint attempt_results (fuel : nat) (script : list behaviour) (c : cache) : list result :=
  match fuel with
  | O => []
  | S fuel' =>
      let '(b, script') := next_b script in
      let '(r, _) := attempt b c in
      match classify r with
      | Transport => r :: attempt_results fuel' script' CNone
      | Reply | MalformedReply => [r]
      end
  end.

Lemma last_cons {A} (a : A) l d : last (a :: l) d = last l a.
Proof. revert a; induction l as [|x l IH]; intros a; [reflexivity|]. cbn [last] in *. destruct l; [reflexivity|]. apply IH. Qed.

(** the specification loop read off the list of attempts, in one induction *)
Lemma spec_loop_results f : forall s c made l,
  co_attempts (spec_loop f s c made l) = made + N.of_nat (length (attempt_results f s c)) /\
  co_result (spec_loop f s c made l) = last (attempt_results f s c) l /\
  Forall (fun r => classify r = Transport) (removelast (attempt_results f s c)) /\
  (classify (last (attempt_results f s c) l) <> Transport \/ length (attempt_results f s c) = f).
Proof.
  induction f as [|f IH]; intros s c made l; cbn [spec_loop attempt_results].
  - cbn [length last removelast co_attempts co_result]. rewrite N.add_0_r. auto.
  - destruct (next_b s) as [b s']. destruct (attempt b c) as [r c1].
    destruct (classify r) eqn:E.
    2, 3: cbn [length last removelast co_attempts co_result];
          repeat split; [constructor | left; rewrite E; discriminate].
    destruct (IH s' CNone (made + 1) r) as (Ha & Hr & Ht & Hs).
    rewrite last_cons. cbn [length removelast]. repeat split.
    + rewrite Ha, Nat2N.inj_succ, <- N.add_1_l, N.add_assoc. reflexivity.
    + exact Hr.
    + destruct (attempt_results f s' CNone); constructor; assumption.
    + destruct Hs as [Hs|Hs]; [left; exact Hs | right; rewrite Hs; reflexivity].
Qed.

Lemma retries_only_after_transport max script c :
  let rs := attempt_results max script c in
  N.of_nat (length rs) = co_attempts (spec_call max script c) /\
  Forall (fun r => classify r = Transport) (removelast rs).
Proof.
  destruct (spec_loop_results max script c 0 (RErr KNotConnected)) as (Ha & _ & Ht & _).
  split; [symmetry; exact Ha | exact Ht].
Qed.

Lemma stops_at_first_reply max script c :
  let rs := attempt_results max script c in
  co_result (spec_call max script c) = last rs (RErr KNotConnected) /\
  (classify (last rs (RErr KNotConnected)) <> Transport \/ length rs = max).
Proof.
  destruct (spec_loop_results max script c 0 (RErr KNotConnected)) as (_ & Hr & _ & Hs).
  exact (conj Hr Hs).
Qed.

Lemma never_wedged max c : (1 <= max)%nat ->
  let o1 := call max [] c in
  is_value (co_result o1) = true \/ is_value (co_result (call max [] (co_cache o1))) = true.
Proof.
  intros H. destruct max as [|f]; [lia|]. cbv zeta. unfold call.
  destruct c; [left; reflexivity..|].
  (* a dead client costs one attempt: it fails with BrokenPipe, which the table lists, so the
     loop drops the client and goes on from [CNone] -- in this call if an attempt is left,
     else in the next *)
  change (retry_loop retry_table (S f) [] CDead 0 (RErr KNotConnected))
    with (retry_loop retry_table f [] CNone 1 (RErr KBrokenPipe)).
  destruct f; [right|left]; reflexivity.
Qed.

(** [retry_table] with the entry of [KBrokenPipe] false: the crate's list before BrokenPipe
    was made retryable *)
Definition old_table : list bool := [true; true; true; true; true; true; false; true; true].

Lemma old_table_wedges max n : (1 <= max)%nat ->
  Forall (fun '(a, r) => r = RErr KBrokenPipe) (follow_ups old_table max n [] CDead).
Proof.
  intros H. destruct max as [|f]; [lia|]. clear H.
  induction n as [|n IH]; cbn [follow_ups]; [constructor|].
  cbn [retry_loop next_b attempt retryable_with kind_index old_table nth co_attempts co_result co_script co_cache].
  constructor; [reflexivity | exact IH].
Qed.

Lemma result_class_eqb_refl r : result_class_eqb r r = true.
Proof. destruct r as [|k]; [reflexivity|]. destruct k; reflexivity. Qed.

Lemma follow_ups_bounds tbl max : (1 <= max)%nat -> forall n s c,
  forallb (fun '(a, _) => (a <=? N.of_nat max) && (1 <=? a)) (follow_ups tbl max n s c) = true.
Proof.
  intros H. induction n as [|n IH]; intros s c; cbn [follow_ups forallb]; [reflexivity|].
  destruct (call_counts tbl max s c (RErr KNotConnected)) as (Hle & Hge & _).
  rewrite IH, (proj2 (N.leb_le _ _) Hle), (proj2 (N.leb_le _ _) (Hge H)). reflexivity.
Qed.

Definition two_ok (rs : list result) : bool :=
  match rs with r1 :: r2 :: _ => is_value r1 || is_value r2 | _ => true end.

Lemma healthy_results_0 fl : healthy_results 0 fl = map snd fl.
Proof.
  induction fl as [|[a r] fl IH]; cbn [healthy_results map snd]; [reflexivity|].
  rewrite N.eqb_refl, IH. reflexivity.
Qed.

Lemma follow_ups_healthy_two max : (1 <= max)%nat -> forall n c,
  two_ok (map snd (follow_ups retry_table max n [] c)) = true.
Proof.
  intros H n c. destruct n as [|[|n]]; cbn [follow_ups map snd two_ok]; try reflexivity.
  rewrite loop_script_nil. fold (call max [] c). fold (call max [] (co_cache (call max [] c))).
  destruct (never_wedged max c H) as [E|E]; rewrite E; [reflexivity | apply orb_true_r].
Qed.

Lemma follow_ups_not_wedged max : (1 <= max)%nat -> forall n s c,
  two_ok (healthy_results (N.of_nat (length s)) (follow_ups retry_table max n s c)) = true.
Proof.
  intros H. induction n as [|n IH]; intros s c; [reflexivity|].
  destruct s as [|b s].
  - change (N.of_nat (length (@nil behaviour))) with 0. rewrite healthy_results_0.
    apply follow_ups_healthy_two. exact H.
  - cbn [follow_ups healthy_results].
    change (N.of_nat (length (b :: s)) =? 0) with false. (* [N.of_nat (S _)] is an [N.pos] *)
    destruct (call_counts retry_table max (b :: s) c (RErr KNotConnected)) as (_ & _ & Hl).
    rewrite <- Hl. apply IH.
Qed.

Lemma ok_model_C19 max script n : (1 <= max)%nat -> ok_C19 max script (model_C19 max script n) = true.
Proof.
  intros H. unfold ok_C19, model_C19. cbn [f_attempts f_result f_follow].
  rewrite <- call_is_spec, N.eqb_refl, result_class_eqb_refl, (follow_ups_bounds retry_table max H).
  pose proof (call_counts retry_table max script CNone (RErr KNotConnected)) as (Hle & _ & Hl).
  fold (call max script CNone) in Hle, Hl.
  rewrite (proj2 (N.leb_le _ _) Hle), <- Hl. exact (follow_ups_not_wedged max H n _ _).
Qed.
