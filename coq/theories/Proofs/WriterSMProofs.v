(** Turns.  A turn that finds the connection live does not look at the rest of the state: it appends
    [put e it], leaves the connection failed iff [fails pol e it], answers [completes it]
    ([turn_eq]).  What holds of a run is an invariant of its turns ([run_inv]) or an induction on the
    items consumed ([run_keys]), proved from what these three are for one item; each clause of the oracle is one ([ok_model_C05]).
    The reader.  On whole well-formed frames followed by a tail on which it stops, [parse_frames]
    returns those frames and that tail ([parse_frames_whole]); a whole-then-torn wire of intended
    frames renders to such bytes ([resync_wire]).
    The mutex.  Single steps of locked writers keep [FInv]: the bytes on the connection are those of
    the turns closed so far, plus what the writer inside has written of its frame ([frun_inv]). *)
From RepeV Require Import Model.WriterSM Proofs.HeaderProofs Proofs.MessageProofs.
From Coq Require Import ZifyBool.

Inductive subseq {A} : list A -> list A -> Prop :=
| sub_nil l : subseq [] l
| sub_skip a x l : subseq a l -> subseq a (x :: l)
| sub_take a x l : subseq a l -> subseq (x :: a) (x :: l).

Lemma subseq_refl {A} (l : list A) : subseq l l.
Proof. induction l as [|x l IH]; [apply sub_nil|apply sub_take; exact IH]. Qed.

Lemma subseq_drop_mid {A} (p : list A) x l : subseq (p ++ l) (p ++ x :: l).
Proof.
  induction p as [|y p IH]; cbn [app]; [apply sub_skip; apply subseq_refl|apply sub_take; exact IH].
Qed.

Lemma forallb_subseq {A} (P : A -> bool) (a l : list A) :
  subseq a l -> forallb P l = true -> forallb P a = true.
Proof.
  intros H. induction H as [l|a x l H IH|a x l H IH]; cbn [forallb]; intros HP.
  - reflexivity.
  - apply andb_true_iff in HP as [_ HP]. exact (IH HP).
  - apply andb_true_iff in HP as [Hx HP]. rewrite Hx, (IH HP). reflexivity.
Qed.

Lemma forallb_snoc {A} (P : A -> bool) l x : forallb P (l ++ [x]) = forallb P l && P x.
Proof. rewrite forallb_app. cbn [forallb]. rewrite andb_true_r. reflexivity. Qed.

Lemma forallb_map {A B} (f : A -> B) (P : B -> bool) l :
  forallb P (map f l) = forallb (fun x => P (f x)) l.
Proof. induction l as [|x l IH]; cbn [map forallb]; [reflexivity|]. rewrite IH. reflexivity. Qed.

Lemma forallb_andb {A} (P Q : A -> bool) l :
  forallb (fun x => P x && Q x) l = forallb P l && forallb Q l.
Proof.
  induction l as [|x l IH]; cbn [forallb]; [reflexivity|]. rewrite IH.
  destruct (P x), (Q x), (forallb P l); reflexivity.
Qed.

Lemma firstn_extend {A} (l : list A) a b :
  firstn (N.to_nat a) l ++ firstn (N.to_nat b) (skipn (N.to_nat a) l) = firstn (N.to_nat (a + b)) l.
Proof. rewrite N2Nat.inj_add. symmetry. apply firstn_plus. Qed.

Lemma lget_lset {V} (d : V) l w v w' :
  lget d (lset l w v) w' = if w =? w' then v else lget d l w'.
Proof.
  induction l as [|[w0 v0] l IH]; cbn [lset lget].
  - reflexivity.
  - destruct (N.eqb_spec w0 w) as [E|E].
    + subst w0. cbn [lget]. destruct (N.eqb_spec w w'); reflexivity.
    + cbn [lget]. rewrite IH. destruct (N.eqb_spec w0 w') as [E1|E1]; [|reflexivity].
      subst w0. destruct (N.eqb_spec w w'); [congruence|reflexivity].
Qed.

Lemma cursor_assoc c : (forall w, cget c w = lget 0 c w) /\ (forall w v, cset c w v = lset c w v).
Proof.
  induction c as [|[w0 v0] c [IHg IHs]]; split; intros w; cbn [cget lget cset lset]; try reflexivity.
  - rewrite IHg. reflexivity.
  - intros v. rewrite IHs. reflexivity.
Qed.

Lemma cget_cset c w v w' : cget (cset c w v) w' = if w =? w' then v else cget c w'.
Proof.
  rewrite (proj2 (cursor_assoc c)), !(proj1 (cursor_assoc _)). apply lget_lset.
Qed.

Definition key : Set := (N * N)%type.
Definition seg_key (s : seg) : key := (sg_w s, sg_seq s).
Definition item_key (it : item) : key := (it_w it, it_seq it).

Fixpoint kordered (l : list key) : bool :=
  match l with
  | [] => true
  | k :: rest =>
      forallb (fun t => negb (fst t =? fst k) || (snd k <? snd t)) rest && kordered rest
  end.

Lemma ordered_keys wire : ordered wire = kordered (map seg_key wire).
Proof.
  induction wire as [|s wire IH]; cbn [ordered kordered map]; [reflexivity|].
  rewrite IH. f_equal. rewrite forallb_map. reflexivity.
Qed.

Lemma kordered_subseq a l : subseq a l -> kordered l = true -> kordered a = true.
Proof.
  intros H. induction H as [l|a x l H IH|a x l H IH]; cbn [kordered]; intros HK.
  - reflexivity.
  - apply andb_true_iff in HK as [_ HK]. exact (IH HK).
  - apply andb_true_iff in HK as [Hx HK]. rewrite (IH HK), andb_true_r.
    exact (forallb_subseq _ _ _ H Hx).
Qed.

Definition item_intended (lens : list (list N)) (it : item) : Prop :=
  nth_error (nth (N.to_nat (it_w it)) lens []) (N.to_nat (it_seq it)) = Some (it_len it).

Lemma picks_intended lens sched : forall cur, Forall (item_intended lens) (picks lens cur sched).
Proof.
  induction sched as [|[w ev] sched IH]; intros cur; cbn [picks]; [constructor|].
  destruct (nth_error _ _) as [len|] eqn:E; [|apply IH].
  constructor; [|apply IH]. unfold item_intended. cbn [it_w it_seq it_len]. exact E.
Qed.

(** every turn of a writer is for a frame it has not started yet *)
Lemma picks_cursor lens sched : forall cur,
  Forall (fun it => cget cur (it_w it) <= it_seq it) (picks lens cur sched).
Proof.
  induction sched as [|[w ev] sched IH]; intros cur; cbn [picks]; [constructor|].
  destruct (nth_error _ _) as [len|]; [|apply IH]. constructor; [apply N.le_refl|].
  refine (Forall_impl _ _ (IH (cset cur w (cget cur w + 1)))). intros it. rewrite cget_cset.
  destruct (N.eqb_spec w (it_w it)) as [<-|_]; [|exact (fun H => H)].
  exact (N.le_trans _ _ _ (N.le_add_r _ 1)).
Qed.

Lemma picks_ordered lens sched : forall cur, kordered (map item_key (picks lens cur sched)) = true.
Proof.
  induction sched as [|[w ev] sched IH]; intros cur; cbn [picks]; [reflexivity|].
  destruct (nth_error _ _) as [len|]; [|apply IH].
  cbn [map kordered]. rewrite IH, andb_true_r, forallb_map. apply forallb_forall. intros it Hin.
  pose proof (proj1 (Forall_forall _ _) (picks_cursor lens sched (cset cur w (cget cur w + 1))) it Hin) as H.
  cbv beta in H. rewrite cget_cset in H. unfold item_key. cbn [fst snd it_w it_seq].
  destruct (N.eqb_spec (it_w it) w) as [E|_]; [|reflexivity].
  rewrite E, N.eqb_refl, N.add_1_r in H. exact (proj2 (N.ltb_lt _ _) (proj1 (N.le_succ_l _ _) H)).
Qed.

(** the first [k] bytes of the frame of [it] *)
Definition part (it : item) (k : N) : seg := mkSeg (it_w it) (it_seq it) (it_len it) k.

Definition put (e : endpoint) (it : item) : list seg :=
  match it_ev it with
  | Whole => [part it (it_len it)]
  | Cut k =>
      if atomic_send e then (if k =? 0 then [] else [part it (it_len it)])
      else if N.min k (it_len it) =? 0 then [] else [part it (N.min k (it_len it))]
  end.

Definition fails (pol : endpoint -> policy) (e : endpoint) (it : item) : bool :=
  match it_ev it with Whole => false | Cut _ => negb (atomic_send e) && closes (pol e) end.

Definition completes (it : item) : bool := match it_ev it with Whole => true | Cut _ => false end.

Lemma turn_eq pol e s it :
  turn pol e s it
  = if w_broken s then (s, false) else (mkW (w_wire s ++ put e it) (fails pol e it), completes it).
Proof.
  unfold turn, put, fails, completes. destruct (w_broken s), (it_ev it); try reflexivity.
  destruct (atomic_send e); reflexivity.
Qed.

Lemma seg_whole_part it : seg_whole (part it (it_len it)) = true.
Proof. apply N.eqb_refl. Qed.

Definition a_part (it : item) (ext : list seg) : Prop :=
  ext = [] \/ exists k, ext = [part it k] /\ k <= it_len it /\ (it_len it <> 0 -> k <> 0).

Lemma whole_a_part it : a_part it [part it (it_len it)].
Proof.
  right. exists (it_len it). split; [reflexivity|]. split; [apply N.le_refl|exact (fun H => H)].
Qed.

Lemma put_cases e it : a_part it (put e it).
Proof.
  unfold put. destruct (it_ev it) as [|k]; [apply whole_a_part|]. destruct (atomic_send e).
  - destruct (k =? 0); [left; reflexivity|apply whole_a_part].
  - destruct (N.min k (it_len it) =? 0) eqn:E; [left; reflexivity|].
    right. exists (N.min k (it_len it)). split; [reflexivity|].
    split; [apply N.le_min_r|intros _; exact (proj1 (N.eqb_neq _ _) E)].
Qed.

Lemma put_completes e it : completes it = true -> put e it = [part it (it_len it)].
Proof. unfold completes, put. destruct (it_ev it); [reflexivity|discriminate]. Qed.

Lemma closes_after_interrupt e : closes (after_interrupt e) = true.
Proof. destruct e; reflexivity. Qed.

(** under [Close] a turn that leaves the connection live wrote a whole frame or nothing *)
Lemma put_whole e it : fails after_interrupt e it = false -> forallb seg_whole (put e it) = true.
Proof.
  unfold fails, put. rewrite closes_after_interrupt, andb_true_r.
  destruct (it_ev it) as [|k]; [intros _; cbn [forallb]; rewrite seg_whole_part; reflexivity|].
  destruct (atomic_send e); [intros _|discriminate].
  destruct (k =? 0); cbn [forallb]; [|rewrite seg_whole_part]; reflexivity.
Qed.

Lemma turn_appends pol e s it :
  exists ext, w_wire (fst (turn pol e s it)) = w_wire s ++ ext /\ a_part it ext.
Proof.
  rewrite turn_eq. destruct (w_broken s).
  - exists []. split; [symmetry; apply app_nil_r|left; reflexivity].
  - exists (put e it). split; [reflexivity|apply put_cases].
Qed.

Lemma run_broken pol e s its :
  w_broken s = true -> run pol e s its = (s, repeat false (length its)).
Proof.
  intros H. induction its as [|it its IH]; cbn [run length repeat]; [reflexivity|].
  rewrite turn_eq, H, IH. reflexivity.
Qed.

Lemma run_cons pol e s it its :
  run pol e s (it :: its)
  = (fst (run pol e (fst (turn pol e s it)) its),
     snd (turn pol e s it) :: snd (run pol e (fst (turn pol e s it)) its)).
Proof.
  cbn [run]. destruct (turn pol e s it) as [s1 r]. cbn [fst snd].
  destruct (run pol e s1 its) as [s2 rs]. reflexivity.
Qed.

Lemma run_fold pol e its : forall s,
  fst (run pol e s its) = fold_left (fun s it => fst (turn pol e s it)) its s.
Proof.
  induction its as [|it its IH]; intros s; [reflexivity|]. rewrite run_cons. cbn [fst fold_left]. apply IH.
Qed.

Lemma run_snoc pol e s a it :
  fst (run pol e s (a ++ [it])) = fst (turn pol e (fst (run pol e s a)) it).
Proof. rewrite !run_fold. apply fold_left_app. Qed.

Lemma run_inv pol e (P : wstate -> Prop) its :
  (forall s it, In it its -> P s -> P (fst (turn pol e s it))) ->
  forall s, P s -> P (fst (run pol e s its)).
Proof. intros H s. rewrite run_fold. exact (fold_left_invariant _ P its H s). Qed.

(** lock-acquisition order: a run appends to the wire, and the frames it appends are a
    subsequence of the turns *)
Lemma run_keys pol e its : forall s,
  exists ext, w_wire (fst (run pol e s its)) = w_wire s ++ ext /\
              subseq (map seg_key ext) (map item_key its).
Proof.
  induction its as [|it its IH]; intros s.
  - exists []. split; [symmetry; apply app_nil_r|apply sub_nil].
  - rewrite run_cons. cbn [fst map]. destruct (IH (fst (turn pol e s it))) as (ext & -> & Hsub).
    destruct (turn_appends pol e s it) as (ext0 & -> & [->|(k & -> & _)]); rewrite <- app_assoc.
    + exists ext. split; [reflexivity|apply sub_skip; exact Hsub].
    + exists (part it k :: ext). split; [reflexivity|apply sub_take; exact Hsub].
Qed.

Lemma wtt_snoc l x : whole_then_torn (l ++ [x]) = forallb seg_whole l.
Proof.
  induction l as [|y l IH]; [reflexivity|]. cbn [app forallb]. rewrite <- IH. destruct l; reflexivity.
Qed.

Lemma wtt_all l : forallb seg_whole l = true -> whole_then_torn l = true.
Proof.
  induction l as [|x l _] using rev_ind; [reflexivity|]. rewrite wtt_snoc, forallb_snoc.
  intros H. apply andb_true_iff in H as [H _]. exact H.
Qed.

Lemma has_torn_all l : has_torn l = negb (forallb seg_whole l).
Proof.
  unfold has_torn. induction l as [|y l IH]; cbn [existsb forallb]; [reflexivity|].
  rewrite IH. destruct (seg_whole y), (forallb seg_whole l); reflexivity.
Qed.

Lemma wtt_shape l :
  whole_then_torn l = true ->
  exists whole torn, l = whole ++ torn /\ forallb seg_whole whole = true /\
    (torn = [] \/ exists t, torn = [t] /\ seg_whole t = false).
Proof.
  induction l as [|x l _] using rev_ind; [|rewrite wtt_snoc]; intros H.
  - exists [], []. repeat split. left. reflexivity.
  - destruct (seg_whole x) eqn:E.
    + exists (l ++ [x]), []. rewrite app_nil_r, forallb_snoc, H, E. repeat split. left. reflexivity.
    + exists l, [x]. repeat split; [exact H|]. right. exists x. split; [reflexivity|exact E].
Qed.

(** the invariant under the policy [Close]: no torn frame so far, or the connection is failed *)
Definition J (s : wstate) : Prop :=
  forallb seg_whole (w_wire s) = true \/
  (w_broken s = true /\ whole_then_torn (w_wire s) = true).

Lemma J_w0 : J w0.
Proof. left. reflexivity. Qed.

Lemma J_turn e s it : J s -> J (fst (turn after_interrupt e s it)).
Proof.
  intros HJ. rewrite turn_eq. destruct (w_broken s) eqn:B; [exact HJ|].
  destruct HJ as [HJ|[HJ _]]; [|congruence]. cbn [fst]. destruct (fails after_interrupt e it) eqn:F.
  - right. split; [reflexivity|]. cbn [w_wire].
    destruct (put_cases e it) as [->|(k & -> & _)]; [rewrite app_nil_r; apply wtt_all|rewrite wtt_snoc]; exact HJ.
  - left. cbn [w_wire]. rewrite forallb_app, HJ. exact (put_whole e it F).
Qed.

Lemma J_run e its s : J s -> J (fst (run after_interrupt e s its)).
Proof. apply run_inv. intros s' it _. apply J_turn. Qed.

Lemma J_wtt s : J s -> whole_then_torn (w_wire s) = true.
Proof. intros [H|[_ H]]; [apply wtt_all; exact H|exact H]. Qed.

Lemma J_torn_broken s : J s -> has_torn (w_wire s) = true -> w_broken s = true.
Proof.
  intros [H|[H _]] Ht; [|exact H]. rewrite has_torn_all, H in Ht. discriminate.
Qed.

Lemma cut_breaks e s w sq len k :
  atomic_send e = false -> w_broken s = false ->
  w_broken (fst (turn after_interrupt e s (mkItem w sq len (Cut k)))) = true.
Proof.
  intros Ha Hb. rewrite turn_eq, Hb. unfold fails. cbn [fst w_broken it_ev]. rewrite Ha.
  apply closes_after_interrupt.
Qed.

Lemma torn_is_last e s w sq len k its :
  atomic_send e = false -> w_broken s = false ->
  let s1 := fst (turn after_interrupt e s (mkItem w sq len (Cut k))) in
  run after_interrupt e s1 its = (s1, repeat false (length its)).
Proof.
  intros Ha Hb s1. apply run_broken. apply cut_breaks; assumption.
Qed.

Definition seg_fine (lens : list (list N)) (s : seg) : bool :=
  intended lens s && ((0 <? sg_k s) && (sg_k s <=? sg_len s)).

Lemma intended_part lens it k : item_intended lens it -> intended lens (part it k) = true.
Proof.
  unfold item_intended, intended, part. cbn [sg_w sg_seq sg_len]. intros ->. apply N.eqb_refl.
Qed.

Lemma intended_len lens it :
  forallb (forallb (fun l => 48 <=? l)) lens = true -> item_intended lens it -> 48 <= it_len it.
Proof.
  intros Hw Hi. unfold item_intended in Hi. apply nth_error_In in Hi. rewrite forallb_forall in Hw.
  destruct (Nat.lt_ge_cases (N.to_nat (it_w it)) (length lens)) as [Hlt|Hge].
  - specialize (Hw _ (nth_In lens [] Hlt)). rewrite forallb_forall in Hw.
    exact (proj1 (N.leb_le _ _) (Hw _ Hi)).
  - rewrite nth_overflow in Hi by exact Hge. contradiction.
Qed.

Lemma run_segs_fine lens pol e its s :
  forallb (forallb (fun l => 48 <=? l)) lens = true -> Forall (item_intended lens) its ->
  forallb (seg_fine lens) (w_wire s) = true ->
  forallb (seg_fine lens) (w_wire (fst (run pol e s its))) = true.
Proof.
  intros Hw Hi. apply (run_inv pol e (fun s => forallb (seg_fine lens) (w_wire s) = true)).
  intros s' it Hin Hs. apply (proj1 (Forall_forall _ _) Hi) in Hin. pose proof (intended_len lens it Hw Hin) as Hl.
  destruct (turn_appends pol e s' it) as (ext & -> & [->|(k & -> & Hk1 & Hk2)]);
    rewrite forallb_app, Hs; [reflexivity|].
  cbn [forallb]. rewrite andb_true_r. unfold seg_fine. rewrite (intended_part lens it k Hin).
  cbn [part sg_k sg_len andb]. clear - Hk1 Hk2 Hl. lia.
Qed.

Definition res_ok (wire : list seg) (r : N * N * bool) : bool :=
  match r with (w, sq, ok) => negb ok || on_wire_whole wire w sq end.

Lemma res_ok_app wire ext r : res_ok wire r = true -> res_ok (wire ++ ext) r = true.
Proof.
  destruct r as [[w sq] ok]. cbn [res_ok]. destruct ok; cbn [negb orb]; [|reflexivity].
  unfold on_wire_whole. rewrite existsb_app. intros ->. reflexivity.
Qed.

Lemma turn_res_ok pol e s it :
  res_ok (w_wire (fst (turn pol e s it))) (it_w it, it_seq it, snd (turn pol e s it)) = true.
Proof.
  rewrite turn_eq. destruct (w_broken s); [reflexivity|]. cbn [fst snd w_wire res_ok].
  destruct (completes it) eqn:C; [|reflexivity]. rewrite (put_completes e it C).
  unfold on_wire_whole. rewrite existsb_app. cbn [existsb negb orb]. rewrite seg_whole_part.
  cbn [part sg_w sg_seq]. rewrite !N.eqb_refl. apply orb_true_r.
Qed.

Lemma results_cons it its r rs :
  results (it :: its) (r :: rs) = (it_w it, it_seq it, r) :: results its rs.
Proof. reflexivity. Qed.

Lemma run_results_ok pol e its : forall s,
  forallb (res_ok (w_wire (fst (run pol e s its)))) (results its (snd (run pol e s its))) = true.
Proof.
  induction its as [|it its IH]; intros s; [reflexivity|].
  rewrite run_cons. cbn [fst snd]. rewrite results_cons. cbn [forallb]. rewrite IH, andb_true_r.
  destruct (run_keys pol e its (fst (turn pol e s it))) as (ext & -> & _). apply res_ok_app, turn_res_ok.
Qed.

(** [sched_wf] carried over to the turns the schedule resolves into *)
Fixpoint items_wf (pf : N) (seen : bool) (its : list item) : bool :=
  match its with
  | [] => true
  | it :: its' =>
      if pf <=? it_w it then completes it && items_wf pf true its'
      else negb seen && items_wf pf seen its'
  end.

Lemma items_wf_weaken pf its : items_wf pf true its = true -> items_wf pf false its = true.
Proof.
  induction its as [|it its IH]; cbn [items_wf]; [reflexivity|].
  destruct (pf <=? it_w it); [intros H; exact H|cbn [negb andb]; discriminate].
Qed.

Lemma picks_wf lens pf sched : forall seen cur,
  sched_wf pf seen sched = true -> items_wf pf seen (picks lens cur sched) = true.
Proof.
  induction sched as [|[w ev] sched IH]; intros seen cur; cbn [sched_wf picks]; [reflexivity|].
  destruct (nth_error _ _) as [len|].
  - cbn [items_wf it_w]. unfold completes. cbn [it_ev].
    destruct (pf <=? w); intros H; apply andb_true_iff in H as [H1 H2]; rewrite H1; apply IH; exact H2.
  - destruct (pf <=? w); intros H; apply andb_true_iff in H as [_ H2]; [|apply IH; exact H2].
    specialize (IH true cur H2). destruct seen; [exact IH|apply items_wf_weaken; exact IH].
Qed.

(** the probes run to completion, and a turn that does leaves the connection as it found it *)
Lemma run_probes_broken pf pol e its : forall s,
  items_wf pf true its = true -> w_broken (fst (run pol e s its)) = w_broken s.
Proof.
  induction its as [|it its IH]; intros s Hwf; [reflexivity|]. cbn [items_wf] in Hwf.
  destruct (pf <=? it_w it); [|discriminate]. apply andb_true_iff in Hwf as [Hev Hwf].
  rewrite run_cons. cbn [fst]. rewrite (IH _ Hwf), turn_eq. destruct (w_broken s) eqn:B; [exact B|].
  unfold fails. unfold completes in Hev. destruct (it_ev it); [reflexivity|discriminate].
Qed.

Definition probe_res_ok (pf : N) (r : N * N * bool) : bool :=
  match r with (w, _, ok) => negb (pf <=? w) || negb ok end.

Lemma results_repeat_false pf its :
  forallb (probe_res_ok pf) (results its (repeat false (length its))) = true.
Proof.
  induction its as [|it its IH]; [reflexivity|].
  cbn [length repeat]. rewrite results_cons. cbn [forallb probe_res_ok negb]. rewrite IH, orb_true_r. reflexivity.
Qed.

(** a connection found failed at the end was failed before the first probe: every probe is
    refused and none of their frames is on the wire *)
Lemma run_probes_fail pf pol e its : forall s,
  items_wf pf false its = true ->
  forallb (fun sg => negb (pf <=? sg_w sg)) (w_wire s) = true ->
  w_broken (fst (run pol e s its)) = true ->
  forallb (probe_res_ok pf) (results its (snd (run pol e s its))) = true /\
  forallb (fun sg => negb (pf <=? sg_w sg)) (w_wire (fst (run pol e s its))) = true.
Proof.
  induction its as [|it its IH]; intros s Hwf Hnp Hb; [split; [reflexivity|exact Hnp]|].
  destruct (pf <=? it_w it) eqn:Ep.
  - assert (Hwf' : items_wf pf true (it :: its) = true) by (cbn [items_wf] in *; rewrite Ep in *; exact Hwf).
    rewrite (run_probes_broken pf pol e _ s Hwf') in Hb. rewrite (run_broken pol e s _ Hb). cbn [fst snd].
    split; [apply results_repeat_false|exact Hnp].
  - cbn [items_wf] in Hwf. rewrite Ep in Hwf. rewrite run_cons in *. cbn [fst snd] in *.
    destruct (IH (fst (turn pol e s it)) Hwf) as [R1 R2]; [|exact Hb|].
    + destruct (turn_appends pol e s it) as (ext & -> & [->|(k & -> & _)]);
        rewrite forallb_app, Hnp; [reflexivity|].
      cbn [forallb part sg_w andb]. rewrite Ep. reflexivity.
    + split; [|exact R2]. rewrite results_cons. cbn [forallb probe_res_ok]. rewrite Ep. exact R1.
Qed.

Lemma is_server_signals e : is_server e = true -> signals_eof e = true.
Proof. destruct e; cbn; congruence. Qed.

Theorem ok_model_C05 c : c05_wf c = true -> ok_C05 c (model_C05 c) = true.
Proof.
  intros Hwf. apply andb_true_iff in Hwf as [Hlens Hsched].
  unfold model_C05, model_with.
  set (its := picks (c_lens c) [] (c_sched c)).
  pose proof (J_run (c_ep c) its w0 J_w0) as HJ.
  pose proof (run_segs_fine (c_lens c) after_interrupt (c_ep c) its w0 Hlens
                (picks_intended (c_lens c) (c_sched c) []) eq_refl) as Hfine.
  pose proof (run_keys after_interrupt (c_ep c) its w0) as (ext & Eext & Hsub).
  pose proof (run_results_ok after_interrupt (c_ep c) its w0) as Hres.
  pose proof (run_probes_fail (c_probe_from c) after_interrupt (c_ep c) its w0
                (picks_wf (c_lens c) (c_probe_from c) (c_sched c) false [] Hsched) eq_refl) as Hprobe.
  destruct (run after_interrupt (c_ep c) w0 its) as [s rs]. cbn [fst snd] in *.
  unfold seg_fine in Hfine. rewrite forallb_andb in Hfine. apply andb_true_iff in Hfine as [F1 F2].
  unfold ok_C05. cbn [o_wire o_garbage o_res o_eof]. repeat (apply andb_true_iff; split).
  - exact F1.
  - exact F2.
  - reflexivity.
  - exact (J_wtt s HJ).
  - rewrite ordered_keys, Eext. exact (kordered_subseq _ _ Hsub (picks_ordered (c_lens c) (c_sched c) [])).
  - exact Hres.
  - destruct (has_torn (w_wire s)) eqn:Ht; [|reflexivity]. pose proof (J_torn_broken s HJ Ht) as Hb.
    destruct (Hprobe Hb) as [P1 P2]. cbn [negb orb]. repeat (apply andb_true_iff; split); [exact P1|exact P2|].
    rewrite Hb. destruct (is_server (c_ep c)) eqn:Es; [|reflexivity].
    exact (is_server_signals _ Es).
Qed.

(** a whole well-formed frame, as the reader sees it: at least the header, and
    as long as its header says *)
Definition wf_frame (f : list byte) : Prop :=
  (48 <= length f)%nat /\ lenN f = 48 + field f 24 8 + field f 32 8.

Definition tail_stops (t : list byte) : Prop :=
  lenN t < 48 \/ lenN t < 48 + field t 24 8 + field t 32 8.

(** what the reader takes for the length of the frame at the head of its input is in that frame's
    first 48 bytes *)
Lemma declared_app f rest :
  (48 <= length f)%nat ->
  48 + field (f ++ rest) 24 8 + field (f ++ rest) 32 8 = 48 + field f 24 8 + field f 32 8.
Proof. intros H. rewrite !field_app_l by lia. reflexivity. Qed.

Lemma tail_stops_nil : tail_stops [].
Proof. left. reflexivity. Qed.

Lemma tail_stops_prefix f k :
  wf_frame f -> (k < length f)%nat -> tail_stops (firstn k f).
Proof.
  intros [H48 Hlen] Hk. unfold tail_stops, lenN in *. rewrite (firstn_length_le f (Nat.lt_le_incl _ _ Hk)).
  destruct (Nat.lt_ge_cases k 48) as [Hlt|Hge]; [left; clear - Hlt; lia|right].
  rewrite !field_firstn by (clear - Hge; lia). clear - Hlen Hk. lia.
Qed.

Lemma parse_stops fuel t : tail_stops t -> parse_frames_fuel fuel t = ([], t).
Proof.
  intros Ht. destruct fuel as [|fuel]; [reflexivity|]. cbn [parse_frames_fuel].
  destruct (lenN t <? 48) eqn:E1; [reflexivity|]. apply N.ltb_ge in E1.
  destruct Ht as [Ht|Ht]; [destruct (N.lt_irrefl _ (N.lt_le_trans _ _ _ Ht E1))|].
  rewrite (proj2 (N.ltb_lt _ _) Ht). reflexivity.
Qed.

Lemma parse_frame fuel f rest :
  wf_frame f ->
  parse_frames_fuel (S fuel) (f ++ rest)
  = (f :: fst (parse_frames_fuel fuel rest), snd (parse_frames_fuel fuel rest)).
Proof.
  intros [H48 Hlen]. cbn [parse_frames_fuel].
  rewrite (declared_app f rest H48), <- Hlen.
  assert (Hle : lenN f <= lenN (f ++ rest)) by (unfold lenN; rewrite app_length; clear; lia).
  assert (H48' : 48 <= lenN (f ++ rest)) by (unfold lenN in *; clear - H48 Hle; lia).
  rewrite (proj2 (N.ltb_ge _ _) H48'), (proj2 (N.ltb_ge _ _) Hle).
  unfold lenN at 1 2. rewrite Nat2N.id, skipn_app_exact, firstn_app_exact. destruct (parse_frames_fuel fuel rest). reflexivity.
Qed.

Lemma parse_whole frames : forall fuel tail,
  Forall wf_frame frames -> (length frames <= fuel)%nat -> tail_stops tail ->
  parse_frames_fuel fuel (concat frames ++ tail) = (frames, tail).
Proof.
  induction frames as [|f frames IH]; intros fuel tail Hwf Hfuel Ht; [exact (parse_stops fuel tail Ht)|].
  destruct fuel as [|fuel]; [destruct (Nat.nle_succ_0 _ Hfuel)|].
  cbn [concat]. rewrite <- app_assoc, (parse_frame _ _ _ (Forall_inv Hwf)),
    (IH _ _ (Forall_inv_tail Hwf) (le_S_n _ _ Hfuel) Ht). reflexivity.
Qed.

Lemma concat_length_ge frames :
  Forall wf_frame frames -> (length frames <= length (concat frames))%nat.
Proof.
  induction 1 as [|f frames [H48 _] _ IH]; cbn [concat length]; [lia|].
  rewrite app_length. lia.
Qed.

Lemma parse_frames_whole frames tail :
  Forall wf_frame frames -> tail_stops tail ->
  parse_frames (concat frames ++ tail) = (frames, tail).
Proof.
  intros Hwf Ht. unfold parse_frames. apply parse_whole; [exact Hwf| |exact Ht].
  rewrite app_length. pose proof (concat_length_ge frames Hwf). lia.
Qed.

Lemma frame_bytes_wf m : msg_ok m = true -> wf_frame (frame_bytes m).
Proof.
  intros Hok. destruct (msg_ok_parts m Hok) as (Hh & _ & _ & _ & Hq & Hb & _).
  unfold frame_bytes. rewrite write_chunks_concat. unfold wf_frame, lenN. rewrite to_vec_length.
  split; [rewrite <- Nat.add_assoc; apply Nat.le_add_r|]. unfold to_vec.
  rewrite (declared_app (encode (m_hdr m))) by (rewrite encode_length; reflexivity).
  rewrite (f_qlen _ Hh), (f_blen _ Hh), Hq, Hb. unfold lenN. clear. lia.
Qed.

Definition frames_match (lens : list (list N)) (fr : N -> N -> list byte) : Prop :=
  forall w i len, nth_error (nth (N.to_nat w) lens []) (N.to_nat i) = Some len ->
                  wf_frame (fr w i) /\ lenN (fr w i) = len.

Definition seg_frame (fr : N -> N -> list byte) (s : seg) : list byte := fr (sg_w s) (sg_seq s).

Lemma render_app fr a b : render fr (a ++ b) = render fr a ++ render fr b.
Proof. unfold render. rewrite map_app, concat_app. reflexivity. Qed.

Lemma intended_frame lens fr s :
  frames_match lens fr -> intended lens s = true ->
  wf_frame (seg_frame fr s) /\ lenN (seg_frame fr s) = sg_len s.
Proof.
  intros Hm Hi. unfold intended in Hi. destruct (nth_error _ _) as [l|] eqn:E; [|discriminate].
  apply N.eqb_eq in Hi as <-. exact (Hm _ _ _ E).
Qed.

Lemma seg_bytes_whole fr s :
  lenN (seg_frame fr s) = sg_len s -> seg_whole s = true -> seg_bytes fr s = seg_frame fr s.
Proof.
  unfold seg_whole, seg_bytes. intros <- Hw. apply N.eqb_eq in Hw as ->.
  unfold lenN. rewrite Nat2N.id. apply firstn_all.
Qed.

Lemma render_whole lens fr whole :
  frames_match lens fr ->
  forallb (seg_fine lens) whole = true -> forallb seg_whole whole = true ->
  render fr whole = concat (map (seg_frame fr) whole) /\ Forall wf_frame (map (seg_frame fr) whole).
Proof.
  intros Hm. induction whole as [|s whole IH]; cbn [forallb map]; intros Hf Hw.
  - split; [reflexivity|constructor].
  - apply andb_true_iff in Hf as [Hf1 Hf]. apply andb_true_iff in Hw as [Hw1 Hw].
    destruct (IH Hf Hw) as [IH1 IH2]. apply andb_true_iff in Hf1 as [Hi _].
    destruct (intended_frame lens fr s Hm Hi) as [Hwf Hl].
    unfold render in *. cbn [map concat]. rewrite IH1, (seg_bytes_whole fr s Hl Hw1).
    split; [reflexivity|constructor; assumption].
Qed.

Theorem resync_wire lens fr wire :
  frames_match lens fr ->
  forallb (seg_fine lens) wire = true -> whole_then_torn wire = true ->
  exists whole torn,
    wire = whole ++ torn /\ forallb seg_whole whole = true /\
    (torn = [] \/ exists t, torn = [t] /\ sg_k t < sg_len t) /\
    parse_frames (render fr wire) = (map (seg_frame fr) whole, render fr torn).
Proof.
  intros Hm Hf Hw. destruct (wtt_shape wire Hw) as (whole & torn & -> & Hwh & Ht).
  rewrite forallb_app in Hf. apply andb_true_iff in Hf as [Hf1 Hf2].
  exists whole, torn. split; [reflexivity|]. split; [exact Hwh|].
  destruct (render_whole lens fr whole Hm Hf1 Hwh) as [R1 R2]. rewrite render_app, R1.
  destruct Ht as [->|[t [-> Htw]]].
  - split; [left; reflexivity|]. exact (parse_frames_whole _ _ R2 tail_stops_nil).
  - cbn [forallb] in Hf2. rewrite andb_true_r in Hf2. apply andb_true_iff in Hf2 as [Hi Hk].
    assert (Hlt : sg_k t < sg_len t) by (unfold seg_whole in Htw; clear - Hk Htw; lia).
    split; [right; exists t; split; [reflexivity|exact Hlt]|].
    apply parse_frames_whole; [exact R2|]. unfold render. cbn [map concat]. rewrite app_nil_r.
    destruct (intended_frame lens fr t Hm Hi) as [Hwf Hl]. apply tail_stops_prefix; [exact Hwf|].
    unfold seg_frame, lenN in Hl. clear - Hlt Hl. lia.
Qed.

(** the mutex: single steps of concurrent writers refine whole turns.  A step puts the bytes of
    one [write_all] on the connection, so the step model stands for the byte-stream endpoints
    ([atomic_send e = false]); a WebSocket endpoint hands over a whole message. *)

Lemma frender_app fr a b : frender fr (a ++ b) = frender fr a ++ frender fr b.
Proof. unfold frender. rewrite map_app, concat_app. reflexivity. Qed.

Lemma frender_emit fr wire w j off n :
  frender fr (emit wire w j off n)
  = frender fr wire ++ firstn (N.to_nat n) (skipn (N.to_nat off) (fr w (j_seq j))).
Proof.
  unfold emit. destruct (N.eqb_spec n 0) as [->|Hn].
  - symmetry. apply app_nil_r.
  - rewrite frender_app. unfold frender at 2. cbn [map concat]. rewrite app_nil_r. reflexivity.
Qed.

Lemma render_one fr s : render fr [s] = seg_bytes fr s.
Proof. unfold render. cbn [map concat]. apply app_nil_r. Qed.

(** how many bytes of its frame a turn puts on a byte-stream connection *)
Definition sent (it : item) : N :=
  match it_ev it with Whole => it_len it | Cut k => N.min k (it_len it) end.

Lemma put_bytes e fr it :
  atomic_send e = false ->
  render fr (put e it) = firstn (N.to_nat (sent it)) (fr (it_w it) (it_seq it)).
Proof.
  intros Ha. unfold put, sent. destruct (it_ev it) as [|k]; [apply render_one|]. rewrite Ha.
  destruct (N.eqb_spec (N.min k (it_len it)) 0) as [->|_]; [reflexivity|apply render_one].
Qed.

Definition job_item (w : N) (j : job) : item := mkItem w (j_seq j) (job_len j) (j_ev j).

Section Steps.
Variables (pol : endpoint -> policy) (e : endpoint) (s : fstate) (w : N).

Lemma fstep_blocked h : lget Idle (f_locs s) w = Idle -> f_holder s = Some h -> fstep true pol e s w = s.
Proof. intros Hl Hh. unfold fstep. rewrite Hl, Hh. destruct (lget [] (f_queues s) w); reflexivity. Qed.

Lemma fstep_free :
  lget Idle (f_locs s) w = Idle -> f_holder s = None ->
  fstep true pol e s w
  = match lget [] (f_queues s) w with
    | [] => s
    | j :: q =>
        if f_broken s then mkF (f_wire s) None true (f_locs s) (lset (f_queues s) w q) (f_log s)
        else mkF (f_wire s) (Some w) false (lset (f_locs s) w (Writing j (j_chunks j) 0))
               (lset (f_queues s) w q) (f_log s ++ [job_item w j])
    end.
Proof. intros Hl Hh. unfold fstep. rewrite Hl, Hh. reflexivity. Qed.

Lemma fstep_chunk j c rem done :
  lget Idle (f_locs s) w = Writing j (c :: rem) done ->
  match j_ev j with Whole => True | Cut k => done + c <= k end ->
  fstep true pol e s w
  = mkF (emit (f_wire s) w j done c) (f_holder s) (f_broken s)
        (lset (f_locs s) w (Writing j rem (done + c))) (f_queues s) (f_log s).
Proof.
  intros Hl Hk. unfold fstep, budget. rewrite Hl. destruct (j_ev j) as [|k]; [reflexivity|].
  replace (c <=? k - done) with true by lia. reflexivity.
Qed.

(** flush and unlock ([b = 0], nothing left to write), or the interruption inside the next chunk:
    [b] more bytes, then the write is abandoned *)
Definition left_with (j : job) (done b : N) : fstate :=
  mkF (emit (f_wire s) w j done b) None
      (f_broken s || match j_ev j with Whole => false | Cut _ => closes (pol e) end)
      (lset (f_locs s) w Idle) (f_queues s) (f_log s).

Lemma fstep_flush j done :
  lget Idle (f_locs s) w = Writing j [] done -> f_holder s = Some w ->
  fstep true pol e s w = left_with j done 0.
Proof. intros Hl Hh. unfold fstep, left_with. rewrite Hl, Hh, N.eqb_refl. reflexivity. Qed.

Lemma fstep_cutoff j c rem done k :
  lget Idle (f_locs s) w = Writing j (c :: rem) done -> f_holder s = Some w ->
  j_ev j = Cut k -> done <= k < done + c ->
  fstep true pol e s w = left_with j done (k - done).
Proof.
  intros Hl Hh Ev Hk. unfold fstep, left_with, budget. rewrite Hl, Hh, Ev, N.eqb_refl.
  replace (c <=? k - done) with false by lia. reflexivity.
Qed.
End Steps.

Section Refines.
Variables (pol : endpoint -> policy) (e : endpoint) (fr : N -> N -> list byte).
Hypothesis byte_stream : atomic_send e = false.

(** the invariant: the fine wire is that of the turns closed so far, [cs] being the coarse state
    after them -- plus, while writer [h] is inside, the [done] bytes it has written of its frame *)
Definition outside (s : fstate) (closed : list item) (cs : wstate) : Prop :=
  f_holder s = None /\ (forall w, lget Idle (f_locs s) w = Idle) /\ f_log s = closed /\
  f_broken s = w_broken cs /\ frender fr (f_wire s) = render fr (w_wire cs).

Definition inside (s : fstate) (closed : list item) (cs : wstate) h j rem done : Prop :=
  f_holder s = Some h /\
  (forall w, lget Idle (f_locs s) w = if h =? w then Writing j rem done else Idle) /\
  f_log s = closed ++ [job_item h j] /\
  done + sumN rem = job_len j /\
  match j_ev j with Whole => True | Cut k => done <= k end /\
  f_broken s = false /\ w_broken cs = false /\
  frender fr (f_wire s) = render fr (w_wire cs) ++ firstn (N.to_nat done) (fr h (j_seq j)).

Definition FInv (s : fstate) : Prop :=
  exists closed, outside s closed (fst (run pol e w0 closed)) \/
                 exists h j rem done, inside s closed (fst (run pol e w0 closed)) h j rem done.

Lemma FInv_f0 queues : FInv (f0 queues).
Proof. exists []. left. repeat split. Qed.

Lemma sumN_cons c l : sumN (c :: l) = c + sumN l.
Proof. reflexivity. Qed.

Lemma inside_enter s closed cs w j q :
  outside s closed cs -> f_broken s = false ->
  inside (mkF (f_wire s) (Some w) false (lset (f_locs s) w (Writing j (j_chunks j) 0)) q
              (f_log s ++ [job_item w j])) closed cs w j (j_chunks j) 0.
Proof.
  intros (_ & Hidle & Hlog & Hb & Hbytes) Hfb. unfold inside. cbn [f_holder f_locs f_log f_broken f_wire].
  repeat split; [|rewrite Hlog; reflexivity|destruct (j_ev j); [exact I|apply N.le_0_l]|congruence|].
  - intros w'. rewrite lget_lset, Hidle. reflexivity.
  - rewrite Hbytes. symmetry. apply app_nil_r.
Qed.

Lemma inside_chunk s closed cs h j c rem done :
  inside s closed cs h j (c :: rem) done ->
  match j_ev j with Whole => True | Cut k => done + c <= k end ->
  inside (mkF (emit (f_wire s) h j done c) (f_holder s) (f_broken s)
              (lset (f_locs s) h (Writing j rem (done + c))) (f_queues s) (f_log s))
         closed cs h j rem (done + c).
Proof.
  intros (Hh & Hloc & Hlog & Hsum & _ & Hfb & Hcb & Hbytes) Hk. unfold inside. cbn [f_holder f_locs f_log f_broken f_wire].
  repeat split; try assumption.
  - intros w'. rewrite lget_lset, Hloc. destruct (h =? w'); reflexivity.
  - rewrite <- Hsum, <- N.add_assoc. reflexivity.
  - rewrite frender_emit, Hbytes, <- app_assoc, firstn_extend. reflexivity.
Qed.

(** leaving the critical section closes the turn: what the writer has put on the connection by
    then is what the turn puts there *)
Lemma outside_leave s closed cs h j rem done b :
  inside s closed cs h j rem done -> done + b = sent (job_item h j) ->
  outside (left_with pol e s h j done b) (closed ++ [job_item h j]) (fst (turn pol e cs (job_item h j))).
Proof.
  intros (_ & Hloc & Hlog & _ & _ & Hfb & Hcb & Hbytes) Hb.
  rewrite turn_eq, Hcb. unfold outside, left_with, fails. cbn [fst w_wire w_broken f_holder f_locs f_log f_broken f_wire].
  rewrite render_app, (put_bytes e fr _ byte_stream), byte_stream, Hfb, <- Hb. cbn [job_item it_ev negb andb orb].
  repeat split; [|exact Hlog|].
  - intros w'. rewrite lget_lset, Hloc. destruct (h =? w'); reflexivity.
  - rewrite frender_emit, Hbytes, <- app_assoc, firstn_extend. reflexivity.
Qed.

Lemma fstep_inv s w : FInv s -> FInv (fstep true pol e s w).
Proof.
  intros [closed [Ho|(h & j & rem & done & Hi)]].
  - pose proof Ho as (Hh & Hidle & Hlog & Hb & Hbytes). rewrite (fstep_free _ _ _ _ (Hidle w) Hh).
    destruct (lget [] (f_queues s) w) as [|j q]; [exists closed; left; exact Ho|].
    exists closed. destruct (f_broken s) eqn:Efb.
    + left. repeat split; assumption.
    + right. exists w, j, (j_chunks j), 0. apply inside_enter; assumption.
  - pose proof Hi as (Hh & Hloc & _ & Hsum & Hcut & _). pose proof (Hloc w) as Hw.
    destruct (N.eqb_spec h w) as [<-|Hne];
      [|rewrite (fstep_blocked _ _ _ _ h Hw Hh); exists closed; right; exists h, j, rem, done; exact Hi].
    assert (Hleave : forall b, done + b = sent (job_item h j) -> FInv (left_with pol e s h j done b)).
    { intros b Hb. exists (closed ++ [job_item h j]). left. rewrite run_snoc.
      exact (outside_leave s closed _ h j rem done b Hi Hb). }
    destruct rem as [|c rem']; [cbn [sumN fold_right] in Hsum|rewrite sumN_cons in Hsum].
    + rewrite (fstep_flush _ _ _ _ j done Hw Hh). apply Hleave. unfold sent, job_item. cbn [it_ev it_len].
      clear - Hsum Hcut. destruct (j_ev j); lia.
    + assert (Hchunk : match j_ev j with Whole => True | Cut k => done + c <= k end ->
                FInv (fstep true pol e s h)).
      { intros Hk. rewrite (fstep_chunk _ _ _ _ j c rem' done Hw Hk).
        exists closed. right. exists h, j, rem', (done + c). exact (inside_chunk _ _ _ _ _ _ _ _ Hi Hk). }
      destruct (j_ev j) as [|k] eqn:Ev; [exact (Hchunk I)|].
      destruct (N.le_gt_cases (done + c) k) as [Hk|Hk]; [exact (Hchunk Hk)|].
      rewrite (fstep_cutoff _ _ _ _ j c rem' done k Hw Hh Ev (conj Hcut Hk)). apply Hleave.
      unfold sent, job_item. cbn [it_ev it_len]. rewrite Ev. clear - Hsum Hcut Hk. lia.
Qed.

Lemma frun_inv sched : forall s, FInv s -> FInv (frun true pol e s sched).
Proof.
  induction sched as [|w sched IH]; intros s H; [exact H|]. exact (IH _ (fstep_inv s w H)).
Qed.
End Refines.

(** the witness frames of the refutations: frame [i] of every writer is the 50-byte message with
    id [7 + i], an empty query and a two-byte body.  The ids only make the frames differ; the bound
    on [i] in [c05_m_ok] is any that keeps them below 2^64. *)

Definition c05_m (id : N) : message := build (mkBuilder id [] [1; 2] 0 0 false 0).
Definition c05_fr (w i : N) : list byte := frame_bytes (c05_m (7 + i)).

Lemma c05_m_ok i : i < 1000 -> msg_ok (c05_m (7 + i)) = true.
Proof.
  intros Hi. unfold c05_m. apply build_ok; cbn [b_query b_body b_id b_qfmt b_bfmt b_ec]; try reflexivity.
  - unfold two64. lia.
Qed.

Lemma c05_fr_match : frames_match [[50; 50]] c05_fr.
Proof.
  intros w i len H.
  assert (Hi : i < 1000 /\ len = 50).
  { destruct (N.to_nat w) as [|[|n]] eqn:Ew; cbn [nth] in H;
      [|destruct (N.to_nat i); discriminate|destruct (N.to_nat i); discriminate].
    destruct (N.to_nat i) as [|[|n]] eqn:Ei; cbn [nth_error] in H; [| |destruct n; discriminate];
      (split; [lia|congruence]). }
  destruct Hi as [Hi ->]. split.
  - apply frame_bytes_wf. apply c05_m_ok. exact Hi.
  - unfold c05_fr, frame_bytes. rewrite write_chunks_concat. unfold lenN. rewrite to_vec_length.
    reflexivity.
Qed.
