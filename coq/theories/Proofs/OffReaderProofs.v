(** Proofs about the off-reader dispatch model (Model/OffReader.v).  The state of the model and the
    ghost list of live requests that [wf_from] threads through a history agree ([tracks]); what
    holds of a well-formed history is an induction over it with [tracks_step] as its step. *)
From RepeV Require Import Model.OffReader.

Lemma execution_wrap nmw h : execution (wrap_with_middlewares nmw h) = execution h.
Proof. unfold wrap_with_middlewares. destruct (nmw =? 0); reflexivity. Qed.

Lemma execution_pipeline nmw h : execution (HPipeline nmw h) = execution h.
Proof. reflexivity. Qed.

Lemma execution_dispatched nmw r :
  execution (dispatched nmw r) = if is_blocking_route r then OffReader else Inline.
Proof. unfold dispatched. rewrite execution_wrap. destruct r; reflexivity. Qed.

Lemma count_app {A} (p : A -> bool) l1 l2 : count p (l1 ++ l2) = count p l1 + count p l2.
Proof.
  induction l1 as [|x l1 IH]; cbn [app count]; [reflexivity|]. rewrite IH. apply N.add_assoc.
Qed.

Lemma count_snoc {A} (p : A -> bool) l x : count p (l ++ [x]) = count p l + (if p x then 1 else 0).
Proof. rewrite count_app. cbn [count]. rewrite N.add_0_r. reflexivity. Qed.

Lemma list_eqb_refl {A} (eqb : A -> A -> bool) :
  (forall x, eqb x x = true) -> forall l, list_eqb eqb l l = true.
Proof.
  intros H l. induction l as [|x l IH]; cbn [list_eqb]; [reflexivity|]. rewrite H, IH. reflexivity.
Qed.

Lemma outcome_eqb_refl o : outcome_eqb o o = true.
Proof. destruct o; cbn [outcome_eqb]; try reflexivity; apply N.eqb_refl. Qed.

Lemma resp_eqb_refl r : resp_eqb r r = true.
Proof. unfold resp_eqb. rewrite !N.eqb_refl. reflexivity. Qed.

Lemma mode_eqb_refl m : mode_eqb m m = true.
Proof. destruct m; reflexivity. Qed.

Lemma route_eqb_eq a b : route_eqb a b = true <-> a = b.
Proof. destruct a, b; cbn [route_eqb]; split; congruence. Qed.

Lemma req_eqb_eq a b : req_eqb a b = true <-> a = b.
Proof.
  unfold req_eqb. rewrite !andb_true_iff, N.eqb_eq, Bool.eqb_true_iff, route_eqb_eq.
  destruct a as [i n t], b as [i' n' t']; cbn [r_id r_notify r_route]. split; [intros [[-> ->] ->]; reflexivity|].
  intros [= -> -> ->]. repeat split.
Qed.

Lemma mem_req_In r l : mem_req r l = true <-> In r l.
Proof.
  induction l as [|x l IH]; cbn [mem_req In]; [split; [discriminate|intros []]|].
  rewrite orb_true_iff, req_eqb_eq, IH. reflexivity.
Qed.

Lemma mem_id_In x l : mem_id x l = true <-> In x l.
Proof.
  induction l as [|y l IH]; cbn [mem_id In]; [split; [discriminate|intros []]|].
  rewrite orb_true_iff, N.eqb_eq, IH. reflexivity.
Qed.

Lemma del_req_Add r l : mem_req r l = true -> Add r (del_req r l) l.
Proof.
  induction l as [|x l IH]; cbn [mem_req del_req]; [discriminate|].
  destruct (req_eqb x r) eqn:E; [apply req_eqb_eq in E as ->; intros _; apply Add_head|].
  intros H. apply Add_cons, IH, H.
Qed.

Lemma Add_map {A B} (f : A -> B) a l l' : Add a l l' -> Add (f a) (map f l) (map f l').
Proof. induction 1; cbn [map]; [apply Add_head|apply Add_cons; assumption]. Qed.

Lemma Add_app_r {A} (a : A) p l l' : Add a l l' -> Add a (l ++ p) (l' ++ p).
Proof. induction 1; cbn [app]; [apply Add_head|apply Add_cons; assumption]. Qed.

(** [l'] is [l], or [l] with one [a] inserted *)
Definition adds {A} (a : A) (l l' : list A) : Prop := l' = l \/ Add a l l'.

Lemma adds_snoc {A} (a : A) l m : m = [] \/ m = [a] -> adds a l (l ++ m).
Proof.
  intros [->| ->]; [left; apply app_nil_r|right]. pose proof (Add_app a l []) as H. rewrite app_nil_r in H. exact H.
Qed.

Lemma adds_in {A} (a : A) l l' x : adds a l l' -> In x l' -> x = a \/ In x l.
Proof.
  intros [->|H] Hx; [right; exact Hx|]. apply (Add_in H) in Hx as [<-|Hx]; [left; reflexivity|right; exact Hx].
Qed.

Lemma adds_NoDup {A} (a : A) l l' : adds a l l' -> NoDup l -> ~ In a l -> NoDup l'.
Proof. intros [->|H] N1 N2; [exact N1|]. apply (NoDup_Add H). split; assumption. Qed.

Lemma cap_step nmw s e : cap (step nmw s e) = cap s.
Proof. reflexivity. Qed.

Lemma run_cons nmw s e evs : run nmw s (e :: evs) = run nmw (step nmw s e) evs.
Proof. reflexivity. Qed.

Lemma cap_run nmw evs : forall s, cap (run nmw s evs) = cap s.
Proof.
  induction evs as [|e evs IH]; intros s; [reflexivity|]. rewrite run_cons, IH. reflexivity.
Qed.

Lemma run_app nmw evs1 evs2 s : run nmw s (evs1 ++ evs2) = run nmw (run nmw s evs1) evs2.
Proof. unfold run. apply fold_left_app. Qed.

Lemma outs_from_app nmw evs1 : forall s evs2,
  outs_from nmw s (evs1 ++ evs2) = outs_from nmw s evs1 ++ outs_from nmw (run nmw s evs1) evs2.
Proof.
  induction evs1 as [|e evs1 IH]; intros s evs2; cbn [app outs_from]; [reflexivity|].
  rewrite IH, run_cons. reflexivity.
Qed.

Lemma step_inline nmw s r :
  is_blocking_route (r_route r) = false ->
  step nmw s (Arrive r)
  = mkSt (running s) (cap s) (outbox s ++ (if r_notify r then [] else [(r_id r, EC_OK)])) /\
  outcome_of nmw s (Arrive r) = (if r_notify r then OInlineRan else OInlineOk).
Proof.
  intros Hb. unfold step, next_running, emit, outcome_of. rewrite execution_dispatched, Hb.
  split; reflexivity.
Qed.

Lemma step_saturated nmw s r :
  is_blocking_route (r_route r) = true -> saturated s = true ->
  step nmw s (Arrive r)
  = mkSt (running s) (cap s)
         (outbox s ++ (if r_notify r then [] else [(r_id r, EC_RESOURCE_EXHAUSTED)])) /\
  outcome_of nmw s (Arrive r) = (if r_notify r then ODrop else OReject).
Proof.
  intros Hb Hs. unfold step, next_running, emit, outcome_of. rewrite execution_dispatched, Hb, Hs.
  split; reflexivity.
Qed.

Lemma step_admitted nmw s r :
  is_blocking_route (r_route r) = true -> saturated s = false ->
  step nmw s (Arrive r) = mkSt (running s + 1) (cap s) (outbox s ++ []) /\
  outcome_of nmw s (Arrive r) = OAdmit.
Proof.
  intros Hb Hs. unfold step, next_running, emit, outcome_of. rewrite execution_dispatched, Hb, Hs.
  split; reflexivity.
Qed.

Lemma step_exit nmw s r h :
  step nmw s (Exit r h)
  = mkSt (running s - 1) (cap s) (outbox s ++ (if r_notify r then [] else [(r_id r, how_code h)])).
Proof. reflexivity. Qed.

Lemma saturated_iff s c : cap s = Some c -> saturated s = (c <=? running s).
Proof. intros H. unfold saturated. rewrite H. reflexivity. Qed.

Lemma saturated_unlimited s : cap s = None -> saturated s = false.
Proof. intros H. unfold saturated. rewrite H. reflexivity. Qed.

Lemma step_le_cap nmw s e c : cap s = Some c -> running s <= c -> running (step nmw s e) <= c.
Proof.
  intros Hc Hr. cbn [step running]. unfold next_running. destruct e as [r|r h]; [|lia].
  destruct (execution (dispatched nmw (r_route r))); [exact Hr|].
  rewrite (saturated_iff s c Hc). destruct (N.leb_spec c (running s)); lia.
Qed.

Lemma run_le_cap nmw c evs : forall s,
  cap s = Some c -> running s <= c -> running (run nmw s evs) <= c.
Proof.
  induction evs as [|e evs IH]; intros s Hc Hr; [exact Hr|]. rewrite run_cons.
  apply IH; [exact Hc|apply step_le_cap; assumption].
Qed.

Lemma maxrun_le_cap nmw c evs : forall s,
  cap s = Some c -> running s <= c -> maxrun_from nmw s evs <= c.
Proof.
  induction evs as [|e evs IH]; intros s Hc Hr; cbn [maxrun_from]; [exact Hr|].
  apply N.max_lub; [exact Hr|]. apply IH; [exact Hc|apply step_le_cap; assumption].
Qed.

Lemma reachable_le_cap nmw c evs : running (run nmw (init (Some c)) evs) <= c.
Proof. apply run_le_cap; [reflexivity|apply N.le_0_l]. Qed.

Lemma emit_implied nmw s e : emit nmw s e = implied e (outcome_of nmw s e).
Proof.
  destruct e as [r|r h]; cbn [emit outcome_of].
  - destruct (execution (dispatched nmw (r_route r))).
    + destruct (r_notify r); reflexivity.
    + destruct (saturated s); [destruct (r_notify r); reflexivity|reflexivity].
  - destruct (r_notify r); [reflexivity|]. destruct h; reflexivity.
Qed.

Lemma outbox_step nmw s e : outbox (step nmw s e) = outbox s ++ emit nmw s e.
Proof. reflexivity. Qed.

Lemma outbox_run nmw evs : forall s,
  outbox (run nmw s evs) = outbox s ++ implied_all evs (outs_from nmw s evs).
Proof.
  induction evs as [|e evs IH]; intros s; cbn [outs_from implied_all].
  - symmetry. apply app_nil_r.
  - rewrite run_cons, IH, outbox_step, emit_implied, app_assoc. reflexivity.
Qed.

Lemma refusal_is_sat nmw s e : is_refusal (outcome_of nmw s e) = is_sat_arrival nmw s e.
Proof.
  destruct e as [r|r h]; cbn [outcome_of is_sat_arrival].
  - destruct (execution (dispatched nmw (r_route r))).
    + destruct (r_notify r); reflexivity.
    + destruct (saturated s); [destruct (r_notify r); reflexivity|reflexivity].
  - destruct (r_notify r); [reflexivity|]. destruct h; reflexivity.
Qed.

Lemma count_refusals nmw evs : forall s,
  count is_refusal (outs_from nmw s evs) = sat_from nmw s evs.
Proof.
  induction evs as [|e evs IH]; intros s; cbn [outs_from count sat_from]; [reflexivity|].
  rewrite refusal_is_sat, IH. reflexivity.
Qed.

Lemma outcome_expected nmw s e : outcome_of nmw s e = expected (cap s) (running s) e.
Proof.
  destruct e as [r|r h]; cbn [outcome_of expected]; [|reflexivity].
  rewrite execution_dispatched. destruct (is_blocking_route (r_route r)); reflexivity.
Qed.

Lemma exit_not_admit nmw s r h : is_admit (outcome_of nmw s (Exit r h)) = false.
Proof. cbn [outcome_of]. destruct (r_notify r); [reflexivity|]. destruct h; reflexivity. Qed.

(** [wf_from] threads [live] (admitted, not yet exited) and [seen] (ids of the arrivals) through
    the history and asks one thing of each event; [live_after] is the same thread of [live]. *)

Definition ev_wf (live : list req) (seen : list N) (e : event) : bool :=
  match e with Arrive r => negb (mem_id (r_id r) seen) | Exit r _ => mem_req r live end.

Definition live_step (c : option N) (live : list req) (e : event) : list req :=
  match e with
  | Arrive r => if is_blocking_route (r_route r) && negb (at_cap c (N.of_nat (length live)))
                then live ++ [r] else live
  | Exit r _ => del_req r live
  end.

Definition seen_step (seen : list N) (e : event) : list N :=
  match e with Arrive r => r_id r :: seen | Exit _ _ => seen end.

Lemma wf_from_cons c live seen e evs :
  wf_from c live seen (e :: evs) = ev_wf live seen e && wf_from c (live_step c live e) (seen_step seen e) evs.
Proof. destruct e; reflexivity. Qed.

Fixpoint live_after (c : option N) (live : list req) (evs : list event) : list req :=
  match evs with
  | [] => live
  | Arrive r :: evs' =>
      live_after c
        (if is_blocking_route (r_route r) && negb (at_cap c (N.of_nat (length live)))
         then live ++ [r] else live) evs'
  | Exit r _ :: evs' => live_after c (del_req r live) evs'
  end.

Lemma live_after_cons c live e evs : live_after c live (e :: evs) = live_after c (live_step c live e) evs.
Proof. destruct e; reflexivity. Qed.

(** the state of the model and the ghost list agree: same cap, as many permits out as live requests *)
Definition tracks (s : st) (c : option N) (live : list req) : Prop :=
  cap s = c /\ running s = N.of_nat (length live).

Lemma tracks_saturated s c live : tracks s c live -> saturated s = at_cap c (N.of_nat (length live)).
Proof. intros [<- <-]. reflexivity. Qed.

(** an arrival is admitted, by the model and by [wf_from] alike, or changes neither count *)
Lemma arrive_cases nmw s c live r :
  tracks s c live ->
  (live_step c live (Arrive r) = live ++ [r] /\
   step nmw s (Arrive r) = mkSt (running s + 1) (cap s) (outbox s ++ []) /\
   outcome_of nmw s (Arrive r) = OAdmit) \/
  (live_step c live (Arrive r) = live /\
   running (step nmw s (Arrive r)) = running s /\ is_admit (outcome_of nmw s (Arrive r)) = false).
Proof.
  intros Ht. unfold live_step. rewrite <- (tracks_saturated _ _ _ Ht).
  destruct (is_blocking_route (r_route r)) eqn:Hb; [destruct (saturated s) eqn:Es|]; cbn [andb negb].
  - right. destruct (step_saturated nmw s r Hb Es) as [-> ->]. destruct (r_notify r); repeat split.
  - left. destruct (step_admitted nmw s r Hb Es) as [-> ->]. repeat split.
  - right. destruct (step_inline nmw s r Hb) as [-> ->]. destruct (r_notify r); repeat split.
Qed.

(** the agreement is kept by a step, and the count moves up at an [OAdmit], down at an [Exit] *)
Lemma tracks_step nmw s c live seen e :
  tracks s c live -> ev_wf live seen e = true ->
  tracks (step nmw s e) c (live_step c live e) /\
  running (step nmw s e) + (if is_exit e then 1 else 0)
  = running s + (if is_admit (outcome_of nmw s e) then 1 else 0).
Proof.
  intros Ht He. unfold tracks. destruct e as [r|r h]; cbn [is_exit].
  - destruct (arrive_cases nmw s c live r Ht) as [(-> & -> & ->)|(-> & E & ->)];
      destruct Ht as [Hc Hl]; cbn [running cap is_admit].
    + rewrite app_length, Nat.add_1_r. clear - Hc Hl. repeat split; [exact Hc|lia|lia].
    + rewrite E. repeat split; [exact Hc|exact Hl].
  - destruct Ht as [Hc Hl]. rewrite exit_not_admit, step_exit. cbn [running cap live_step].
    pose proof (Add_length (del_req_Add r live He)) as Hd. clear - Hc Hl Hd. repeat split; [exact Hc|lia|lia].
Qed.

(** [pre_e], [pre_o]: the events and outcomes already consumed.  The hypothesis that carries the
    induction is the permit count: running = admitted so far - exited so far *)
Lemma events_ok_model nmw c evs : forall s live seen pre_e pre_o,
  tracks s c live -> running s + count is_exit pre_e = count is_admit pre_o ->
  wf_from c live seen evs = true ->
  events_ok c pre_e pre_o evs (outs_from nmw s evs) = true.
Proof.
  induction evs as [|e evs IH]; intros s live seen pre_e pre_o Ht Hn Hwf;
    cbn [outs_from events_ok]; [reflexivity|].
  apply andb_true_iff. split.
  { rewrite <- Hn, N.add_sub, <- (proj1 Ht), <- (outcome_expected nmw). apply outcome_eqb_refl. }
  rewrite wf_from_cons in Hwf. apply andb_true_iff in Hwf as [He Hwf].
  destruct (tracks_step nmw s c live seen e Ht He) as [Ht' Hr].
  refine (IH _ _ _ _ _ Ht' _ Hwf). rewrite !count_snoc. clear - Hn Hr. lia.
Qed.

Lemma modes_model nmw :
  map (fun r => execution (dispatched nmw r)) all_routes
  = map (fun r => if is_blocking_route r then OffReader else Inline) all_routes.
Proof. apply map_ext. intros r. apply execution_dispatched. Qed.

Lemma tracks_init c : tracks (init c) c [].
Proof. split; reflexivity. Qed.

Lemma ok_model_C16 c : c16_wf c = true -> ok_C16 c (model_C16 c) = true.
Proof.
  unfold c16_wf. intros H. apply andb_true_iff in H as [Hcap Hwf].
  unfold ok_C16, model_C16.
  cbn [o_maxrun o_outs o_resp o_sat o_pan o_alive o_modes].
  assert (H1 : cap_respected (c_cap c) (maxrun_from (c_mw c) (init (c_cap c)) (c_evs c)) = true).
  { unfold cap_respected. destruct (c_cap c) as [k|] eqn:E; [|reflexivity].
    apply N.leb_le. apply maxrun_le_cap; [reflexivity|apply N.le_0_l]. }
  rewrite H1, (events_ok_model _ _ _ _ _ _ [] [] (tracks_init _) eq_refl Hwf), outbox_run. cbn [init outbox app].
  rewrite (list_eqb_refl resp_eqb resp_eqb_refl), count_refusals, !N.eqb_refl, modes_model,
    (list_eqb_refl mode_eqb mode_eqb_refl).
  reflexivity.
Qed.

Lemma running_counts_live nmw c evs : forall s live seen,
  tracks s c live -> wf_from c live seen evs = true ->
  tracks (run nmw s evs) c (live_after c live evs).
Proof.
  induction evs as [|e evs IH]; intros s live seen Ht Hwf; [exact Ht|].
  rewrite wf_from_cons in Hwf. apply andb_true_iff in Hwf as [He Hwf].
  rewrite run_cons, live_after_cons.
  exact (IH _ _ _ (proj1 (tracks_step nmw s c live seen e Ht He)) Hwf).
Qed.

Lemma batch_admitted nmw c rs : forall s,
  cap s = Some c -> running s + N.of_nat (length rs) <= c ->
  forallb (fun r => is_blocking_route (r_route r)) rs = true ->
  outs_from nmw s (map Arrive rs) = map (fun _ => OAdmit) rs /\
  running (run nmw s (map Arrive rs)) = running s + N.of_nat (length rs).
Proof.
  induction rs as [|r rs IH]; intros s Hc Hn Hb.
  - split; [reflexivity|]. symmetry. apply N.add_0_r.
  - cbn [forallb] in Hb. apply andb_true_iff in Hb as [Hb Hbs].
    cbn [length] in *. rewrite Nat2N.inj_succ, <- N.add_1_l, N.add_assoc in *.
    assert (Es : saturated s = false).
    { rewrite (saturated_iff s c Hc). apply N.leb_gt. clear - Hn. lia. }
    destruct (step_admitted nmw s r Hb Es) as [Hst Ho]. cbn [map outs_from]. rewrite Ho, run_cons, Hst.
    destruct (IH (mkSt (running s + 1) (cap s) (outbox s ++ [])) Hc Hn Hbs) as [I1 I2].
    rewrite I1, I2. split; reflexivity.
Qed.

Lemma unlimited_admits nmw s r :
  cap s = None -> is_blocking_route (r_route r) = true -> outcome_of nmw s (Arrive r) = OAdmit.
Proof. intros Hc Hb. exact (proj2 (step_admitted nmw s r Hb (saturated_unlimited s Hc))). Qed.

Definition same_ctl (s s' : st) : Prop := running s = running s' /\ cap s = cap s'.

Lemma same_ctl_step nmw s s' e : same_ctl s s' -> same_ctl (step nmw s e) (step nmw s' e).
Proof.
  intros [Hr Hc]. unfold same_ctl, step. cbn [running cap]. split; [|exact Hc].
  unfold next_running, saturated. rewrite Hr, Hc. reflexivity.
Qed.

Lemma same_ctl_outcome nmw s s' e : same_ctl s s' -> outcome_of nmw s e = outcome_of nmw s' e.
Proof. intros [Hr Hc]. rewrite !outcome_expected, Hr, Hc. reflexivity. Qed.

Lemma same_ctl_outs nmw evs : forall s s',
  same_ctl s s' -> outs_from nmw s evs = outs_from nmw s' evs /\ same_ctl (run nmw s evs) (run nmw s' evs).
Proof.
  induction evs as [|e evs IH]; intros s s' H; cbn [outs_from]; [split; [reflexivity|exact H]|].
  rewrite (same_ctl_outcome nmw s s' e H), !run_cons.
  destruct (IH _ _ (same_ctl_step nmw s s' e H)) as [I1 I2]. rewrite I1. split; [reflexivity|exact I2].
Qed.

(** two histories that differ in one place -- an event [e] in one, the events [alt] (possibly none)
    in the other -- after which as many handlers run: every other event has the same outcome, the
    same replies are queued after the place in the same order, and the same number of handlers runs *)
Lemma others_unaffected nmw s evs1 e alt evs2 :
  let s1 := run nmw s evs1 in
  same_ctl (step nmw s1 e) (run nmw s1 alt) ->
  exists rest_outs rest_replies,
    outs_from nmw s (evs1 ++ e :: evs2) = outs_from nmw s evs1 ++ outcome_of nmw s1 e :: rest_outs /\
    outs_from nmw s (evs1 ++ alt ++ evs2) = outs_from nmw s evs1 ++ outs_from nmw s1 alt ++ rest_outs /\
    outbox (run nmw s (evs1 ++ e :: evs2)) = outbox (step nmw s1 e) ++ rest_replies /\
    outbox (run nmw s (evs1 ++ alt ++ evs2)) = outbox (run nmw s1 alt) ++ rest_replies /\
    running (run nmw s (evs1 ++ e :: evs2)) = running (run nmw s (evs1 ++ alt ++ evs2)).
Proof.
  intros s1 Hsame. destruct (same_ctl_outs nmw evs2 _ _ Hsame) as [Houts [Hrun _]].
  exists (outs_from nmw (run nmw s1 alt) evs2), (implied_all evs2 (outs_from nmw (run nmw s1 alt) evs2)).
  rewrite (app_assoc evs1 alt evs2). repeat split; rewrite ?outs_from_app, ?run_app; fold s1.
  - cbn [outs_from]. rewrite Houts. reflexivity.
  - symmetry. apply app_assoc.
  - rewrite run_cons, outbox_run, Houts. reflexivity.
  - apply outbox_run.
  - exact Hrun.
Qed.

Definition ev_id (e : event) : N := match e with Arrive r => r_id r | Exit r _ => r_id r end.

Lemma implied_id e o : map fst (implied e o) = [] \/ map fst (implied e o) = [ev_id e].
Proof. unfold implied. fold (ev_id e). destruct o; cbn [map fst]; auto. Qed.

Lemma emit_ids nmw s e : map fst (emit nmw s e) = [] \/ map fst (emit nmw s e) = [ev_id e].
Proof. rewrite emit_implied. apply implied_id. Qed.

(** the ids that are spoken for: those of the live requests (their reply is still to come) and
    those of the replies queued so far *)
Definition ids (s : st) (live : list req) : list N := map r_id live ++ map fst (outbox s).

(** an event puts its id among them at most once; an exit has first taken it out of the live ones *)
Lemma ids_step nmw s c live seen e :
  tracks s c live -> ev_wf live seen e = true ->
  exists rest, adds (ev_id e) rest (ids (step nmw s e) (live_step c live e)) /\
               match e with Arrive _ => rest = ids s live | Exit _ _ => Add (ev_id e) rest (ids s live) end.
Proof.
  intros Ht He. unfold ids. destruct e as [r|r h]; cbn [ev_id].
  - exists (map r_id live ++ map fst (outbox s)). split; [|reflexivity].
    destruct (arrive_cases nmw s c live r Ht) as [(-> & -> & _)|(-> & _)].
    + cbn [outbox]. rewrite app_nil_r, map_app, <- app_assoc. right. apply Add_app.
    + cbn [step outbox]. rewrite map_app, app_assoc. apply adds_snoc, emit_ids.
  - exists (map r_id (del_req r live) ++ map fst (outbox s)). split.
    + cbn [step outbox live_step]. rewrite map_app, app_assoc. apply adds_snoc, (emit_ids nmw s (Exit r h)).
    + apply Add_app_r, Add_map, del_req_Add, He.
Qed.

Lemma NoDup_app_r {A} (l l' : list A) : NoDup (l ++ l') -> NoDup l'.
Proof.
  induction l as [|x l IH]; [exact (fun H => H)|]. intros H. exact (IH (proj2 (proj1 (NoDup_cons_iff _ _) H))).
Qed.

Lemma one_reply_gen nmw c evs : forall s live seen,
  tracks s c live -> NoDup (ids s live) -> incl (ids s live) seen -> wf_from c live seen evs = true ->
  NoDup (map fst (outbox (run nmw s evs))).
Proof.
  induction evs as [|e evs IH]; intros s live seen Ht Hn Hi Hwf; [exact (NoDup_app_r _ _ Hn)|].
  rewrite wf_from_cons in Hwf. apply andb_true_iff in Hwf as [He Hwf].
  destruct (ids_step nmw s c live seen e Ht He) as (rest & Ha & Hr).
  apply (IH _ _ _ (proj1 (tracks_step nmw s c live seen e Ht He))) with (3 := Hwf); destruct e as [r|r h]; cbn [seen_step ev_id ev_wf] in *.
  - subst rest. apply (adds_NoDup _ _ _ Ha Hn). intros H. apply Hi, mem_id_In in H. rewrite H in He. discriminate.
  - apply (NoDup_Add Hr) in Hn as [Hn Hni]. exact (adds_NoDup _ _ _ Ha Hn Hni).
  - subst rest. intros x Hx. destruct (adds_in _ _ _ _ Ha Hx) as [->|H]; [left; reflexivity|right; exact (Hi x H)].
  - intros x Hx. apply Hi, (Add_in Hr). destruct (adds_in _ _ _ _ Ha Hx) as [->|H]; [left; reflexivity|right; exact H].
Qed.
