(** The pointer functions of src/registry.rs: escaping round trips, the one-pass
    unescape is RFC 6901 decoding, the borrowed fast path of [canonical_key]
    agrees with parse + re-escape, and [canonical_pointer] is injective on what
    [parse_pointer] can return. *)
From RepeV Require Import Model.Json Model.Registry Proofs.JsonProofs.

Lemma escape_token_entoken t : escape_token t = sp_entoken t.
Proof.
  unfold escape_token, sp_entoken.
  induction t as [|b t IH]; cbn [replace1 flat_map]; [reflexivity|].
  destruct (b =? TILDE) eqn:E.
  - cbn [app replace1]. change (TILDE =? SLASH) with false. change (ZERO =? SLASH) with false.
    now rewrite IH.
  - cbn [replace1]. destruct (b =? SLASH) eqn:F; cbn [app]; now rewrite IH.
Qed.

Lemma unescape_go_free t : contains TILDE t = false -> unescape_go t = Some t.
Proof.
  induction t as [|b t IH]; intros H; cbn [unescape_go]; [reflexivity|].
  apply contains_cons_false in H as [H1 H2]. rewrite H1, (IH H2). reflexivity.
Qed.

Lemma unescape_token_go t : unescape_token t = unescape_go t.
Proof.
  unfold unescape_token. destruct (contains TILDE t) eqn:E; [reflexivity|]. symmetry. now apply unescape_go_free.
Qed.

Lemma unescape_go_entoken t : unescape_go (sp_entoken t) = Some t.
Proof.
  induction t as [|b t IH]; [reflexivity|]. unfold sp_entoken in *. cbn [flat_map].
  destruct (N.eqb_spec b TILDE) as [->|E]; [cbn [app unescape_go]; now rewrite IH|].
  destruct (N.eqb_spec b SLASH) as [->|F]; cbn [app unescape_go]; [now rewrite IH|].
  destruct (N.eqb_spec b TILDE); [contradiction|]. now rewrite IH.
Qed.

Lemma escape_unescape t : unescape_token (escape_token t) = Some t.
Proof. rewrite unescape_token_go, escape_token_entoken. apply unescape_go_entoken. Qed.

Lemma entoken_slash_free t : contains SLASH (sp_entoken t) = false.
Proof.
  unfold sp_entoken. induction t as [|b t IH]; cbn [flat_map]; [reflexivity|].
  rewrite contains_app, IH, orb_false_r.
  destruct (b =? TILDE) eqn:E; [reflexivity|]. destruct (b =? SLASH) eqn:F; [reflexivity|].
  cbn. now rewrite F.
Qed.

Lemma unescape_go_entoken_inv e : forall t,
  contains SLASH e = false -> unescape_go e = Some t -> sp_entoken t = e.
Proof.
  induction e as [|c e IH IH2] using list_ind2; intros t Hs H; cbn [unescape_go] in H; [now injection H as <-|].
  apply contains_cons_false in Hs as [Hc Hs]. destruct (c =? TILDE) eqn:E.
  - apply N.eqb_eq in E. subst c. destruct e as [|x e]; [discriminate|].
    apply contains_cons_false in Hs as [_ Hs]. specialize (IH2 x e eq_refl).
    destruct (unescape_go e) as [t'|]; [|now destruct (x =? ZERO), (x =? ONE)].
    rewrite <- (IH2 t' Hs eq_refl).
    destruct (N.eqb_spec x ZERO) as [->|_]; [|destruct (N.eqb_spec x ONE) as [->|_]; [|discriminate]];
      injection H as <-; reflexivity.
  - destruct (unescape_go e) as [t'|]; [|discriminate]. injection H as <-.
    unfold sp_entoken. cbn [flat_map]. rewrite E, Hc. cbn [app]. f_equal. exact (IH t' Hs eq_refl).
Qed.

Lemma unescape_escape e t : contains SLASH e = false -> unescape_token e = Some t -> escape_token t = e.
Proof. rewrite unescape_token_go, escape_token_entoken. apply unescape_go_entoken_inv. Qed.

Lemma escape_free t : contains TILDE t = false -> contains SLASH t = false -> escape_token t = t.
Proof. intros H1 H2. unfold escape_token. rewrite (replace1_free _ _ _ H1). now apply replace1_free. Qed.

Lemma unescape_go_rfc t : unescape_go t = sp_untoken t.
Proof.
  unfold sp_untoken.
  induction t as [|c t IH IH2] using list_ind2; [reflexivity|]. cbn [unescape_go esc_wf].
  destruct (N.eqb_spec c TILDE) as [->|Hc].
  - destruct t as [|x t]; [reflexivity|]. rewrite (IH2 x t eq_refl).
    destruct (N.eqb_spec x ZERO) as [->|_]; [|destruct (N.eqb_spec x ONE) as [->|_]; [|reflexivity]];
      cbn [orb andb]; (destruct (esc_wf t); [|reflexivity]); cbn [option_map].
    + rewrite (replace2_cons_other2 TILDE ONE SLASH ZERO), (replace2_cons_other TILDE ONE SLASH ZERO),
        replace2_hit by discriminate. reflexivity.
    + rewrite replace2_hit, (replace2_cons_other TILDE ZERO TILDE SLASH) by discriminate. reflexivity.
  - rewrite IH. destruct (esc_wf t); [|reflexivity]. cbn [option_map].
    rewrite (replace2_cons_other TILDE ONE SLASH c), (replace2_cons_other TILDE ZERO TILDE c) by assumption.
    reflexivity.
Qed.

Lemma unescape_token_rfc t : unescape_token t = sp_untoken t.
Proof. rewrite unescape_token_go. apply unescape_go_rfc. Qed.

Lemma unescape_go_nil t : unescape_go t = Some [] -> t = [].
Proof.
  destruct t as [|c t]; [reflexivity|]. cbn [unescape_go].
  destruct (c =? TILDE); [destruct t as [|x t]; [discriminate|]; destruct (x =? ZERO), (x =? ONE)|];
    try discriminate; destruct (unescape_go t); discriminate.
Qed.

Lemma parse_pointer_spec p :
  parse_pointer p = match sp_decode p with Some path => Ok path | None => Err EInvalidPointer end.
Proof.
  unfold parse_pointer, sp_decode. destruct p as [|c [|x rest]]; cbn [is_root_ptr];
    [reflexivity|destruct (c =? SLASH); reflexivity|].
  destruct (c =? SLASH); [|reflexivity]. rewrite (map_ext _ _ unescape_token_rfc).
  destruct (collect_opt _); reflexivity.
Qed.

Lemma parse_registration_path_spec p :
  parse_registration_path p = match sp_decode_reg p with Some path => Ok path | None => Err EInvalidPointer end.
Proof.
  unfold parse_registration_path, sp_decode_reg. destruct p as [|c rest]; [reflexivity|].
  cbn [starts_with]. destruct (c =? SLASH); apply parse_pointer_spec.
Qed.

Lemma canonical_pointer_encode segs : canonical_pointer segs = sp_encode segs.
Proof.
  unfold canonical_pointer, sp_encode. destruct segs as [|s segs]; [reflexivity|].
  rewrite flat_map_concat_map. f_equal. apply map_ext. intros t. now rewrite escape_token_entoken.
Qed.

Lemma canonical_pointer_flat segs :
  segs <> [] -> canonical_pointer segs = flat_map (cons SLASH) (map escape_token segs).
Proof.
  destruct segs as [|s segs]; [contradiction|]. intros _. unfold canonical_pointer.
  generalize (s :: segs). intros l. induction l as [|t l IH]; cbn [flat_map map]; [reflexivity|now rewrite IH].
Qed.

Lemma collect_opt_none {A} (l : list (option A)) : collect_opt l = None <-> In None l.
Proof.
  induction l as [|[x|] l IH]; cbn [collect_opt In]; [split; [discriminate|intros []]| |split; auto].
  destruct (collect_opt l); cbn [option_map].
  - split; [discriminate|intros [H|H]; [discriminate|discriminate (proj2 IH H)]].
  - split; [intros _; right; exact (proj1 IH eq_refl)|reflexivity].
Qed.

Lemma collect_opt_map_some {A B} (f : A -> option B) (g : A -> B) l :
  Forall (fun x => f x = Some (g x)) l -> collect_opt (map f l) = Some (map g l).
Proof. induction 1 as [|x l Hx _ IH]; cbn [map collect_opt]; [reflexivity|]. now rewrite Hx, IH. Qed.

Lemma collect_opt_map_if {A B} (w : A -> bool) (g : A -> B) l r :
  collect_opt (map (fun t => if w t then Some (g t) else None) l) = Some r -> r = map g l.
Proof.
  revert r; induction l as [|x l IH]; intros r H; cbn [map collect_opt] in H; [now injection H as <-|].
  destruct (w x); [|discriminate]. destruct (collect_opt _) as [r'|]; [|discriminate].
  injection H as <-. cbn [map]. f_equal. now apply IH.
Qed.

(** the fast path of [canonical_key] (borrow the pointer when it has no '~')
    computes exactly what the slow path (parse + re-escape) computes, errors included *)
Lemma canonical_key_agrees p :
  canonical_key p = match parse_pointer p with Ok segs => Ok (canonical_pointer segs) | Err e => Err e end.
Proof.
  unfold canonical_key, parse_pointer. destruct (is_root_ptr p) eqn:R; [reflexivity|].
  destruct p as [|c rest]; [discriminate|]. cbn [starts_with].
  destruct (N.eqb_spec c SLASH) as [->|_]; cbn [negb]; [|reflexivity].
  destruct (contains TILDE (SLASH :: rest)) eqn:T; cbn [negb]; [reflexivity|].
  apply contains_cons_false in T as [_ T].
  (* no piece of [rest] has a '~' or a '/': unescaping and escaping leave the pieces alone *)
  pose proof (split_pieces SLASH rest TILDE (or_intror T)) as Ft.
  pose proof (split_pieces SLASH rest SLASH (or_introl eq_refl)) as Fs.
  rewrite (collect_opt_map_some unescape_token (fun t => t)), map_id.
  - rewrite canonical_pointer_flat by apply split_on_nonempty.
    rewrite (map_ext_Forall escape_token (fun t => t)), map_id, flat_split; [reflexivity|].
    rewrite Forall_forall in *. intros t Ht. apply escape_free; auto.
  - eapply Forall_impl; [|exact Ft]. intros t Ht. unfold unescape_token. now rewrite Ht.
Qed.

Lemma parse_pointer_not_single_empty p segs : parse_pointer p = Ok segs -> segs <> [[]].
Proof.
  unfold parse_pointer. destruct (is_root_ptr p) eqn:R; [intros [= <-]; discriminate|].
  destruct p as [|c rest]; [discriminate|]. destruct (N.eqb_spec c SLASH) as [->|_]; [|discriminate].
  destruct (collect_opt _) as [l|] eqn:C; [|discriminate]. intros [= <-] ->.
  pose proof (flat_split SLASH rest) as J.
  destruct (split_on SLASH rest) as [|t [|t' ts]]; [discriminate| |]; cbn [map collect_opt] in C.
  - (* one piece, which unescapes to the empty token: [rest] is empty, the pointer is "/" *)
    rewrite unescape_token_go in C. destruct (unescape_go t) as [[|]|] eqn:U; try discriminate.
    apply unescape_go_nil in U. subst t. injection J as <-. discriminate.
  - destruct (unescape_token t); [destruct (unescape_token t'); [destruct (collect_opt _)|]|]; discriminate.
Qed.

Lemma parse_registration_not_single_empty path segs : parse_registration_path path = Ok segs -> segs <> [[]].
Proof.
  unfold parse_registration_path. destruct path; [intros [= <-]; discriminate|].
  apply parse_pointer_not_single_empty.
Qed.

Lemma parse_canonical segs : segs <> [[]] -> parse_pointer (canonical_pointer segs) = Ok segs.
Proof.
  intros Hne. destruct segs as [|s segs]; [reflexivity|].
  rewrite canonical_pointer_flat by discriminate. cbn [map flat_map app]. unfold parse_pointer.
  assert (F : forall l, Forall (fun u => contains SLASH u = false) (map escape_token l)).
  { intros l. apply Forall_forall. intros t Ht. apply in_map_iff in Ht as [u [<- _]].
    rewrite escape_token_entoken. apply entoken_slash_free. }
  replace (is_root_ptr _) with false.
  - cbv beta iota. rewrite N.eqb_refl, split_flat; [|apply F|apply (Forall_inv (F [s]))].
    change (escape_token s :: map escape_token segs) with (map escape_token (s :: segs)).
    rewrite map_map, (collect_opt_map_some _ (fun t => t)), map_id; [reflexivity|].
    apply Forall_forall. intros t _. apply escape_unescape.
  - destruct segs as [|s' segs]; cbn [map flat_map app]; [|now destruct (escape_token s)].
    rewrite app_nil_r, escape_token_entoken. destruct s as [|b s]; [contradiction|].
    unfold sp_entoken. cbn [flat_map]. now destruct (b =? TILDE), (b =? SLASH).
Qed.

Lemma canonical_pointer_inj a b :
  a <> [[]] -> b <> [[]] -> canonical_pointer a = canonical_pointer b -> a = b.
Proof.
  intros Ha Hb H. pose proof (parse_canonical a Ha) as Pa. rewrite H, (parse_canonical b Hb) in Pa. congruence.
Qed.

Lemma path_eqb_spec a : forall b, reflect (a = b) (path_eqb a b).
Proof.
  induction a as [|x a IH]; intros [|y b]; cbn [path_eqb]; try (constructor; congruence).
  destruct (str_eqb_spec x y) as [->|]; [|constructor; congruence].
  destruct (IH b); constructor; congruence.
Qed.

Lemma canonical_pointer_eqb a b :
  a <> [[]] -> b <> [[]] -> str_eqb (canonical_pointer a) (canonical_pointer b) = path_eqb a b.
Proof.
  intros Ha Hb. destruct (path_eqb_spec a b) as [->|N]; [apply str_eqb_refl|].
  destruct (str_eqb_spec (canonical_pointer a) (canonical_pointer b)) as [E|]; [|reflexivity].
  now apply canonical_pointer_inj in E.
Qed.
