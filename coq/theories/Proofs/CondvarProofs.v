(** Proofs about the mutex / condition-variable protocol of TransferControl
    (Model/Condvar.v): no lost wake-up over all interleavings, right return
    value, Timeout neither early nor never, and the C12 oracle on the model. *)
From RepeV Require Import Model.Condvar Proofs.StreamProofs.

(** like [proj] of StreamProofs, with the fields of [sys] *)
Ltac yproj :=
  cbn [fst snd y_tc y_w y_now y_deadline y_kind
       t_window t_sent t_acked t_file t_cancelled t_ring t_held t_cap t_peer t_pending].

Lemma quiet_step s o :
  t_cancelled s = None -> notifies s o = false ->
  t_cancelled (next s o) = None /\ t_window (next s o) = t_window s /\
  t_acked (next s o) = t_acked s /\ t_sent s <= t_sent (next s o) /\
  (t_pending s = None -> t_pending (next s o) = None).
Proof.
  intros Hc Hq. unfold next, accepts. proj. rewrite Hc.
  destruct o as [n|f n|f|p f n|r|off len lst body|p|len| |n]; cbn [notifies] in Hq; rewrite ?Hc in Hq.
  (* [Advance] notifies, and so does [Cancel] in a state that is not cancelled *)
  3, 5: discriminate Hq.
  (* [Ack] and [Resume] are silent when the test that guards their update fails *)
  2, 3: rewrite Hq; cbn [andb].
  (* what is left changes none of the five fields, but for [Sent], which raises [t_sent], and
     [TryReconnect], which clears [t_pending] *)
  all: repeat split; try reflexivity; try apply N.le_refl; try (intros E; exact E).
  destruct (t_sent s <? n) eqn:E; lia.
Qed.

Lemma quiet_keeps_unready k s o :
  ready k s = false -> notifies s o = false -> ready k (fst (step s o)) = false.
Proof.
  unfold ready. rewrite step_fst.
  destruct (t_cancelled s) eqn:Hc; [discriminate|]. intros R Hq.
  destruct (quiet_step s o Hc Hq) as (-> & Hw & Ha & Hs & Hp).
  destruct k as [len|].
  - unfold credit_ok in *. rewrite Hw, Ha. lia.
  - destruct (t_pending s); [discriminate|]. now rewrite Hp.
Qed.

Lemma ready_needs_notify k s o :
  ready k s = false -> ready k (fst (step s o)) = true -> notifies s o = true.
Proof.
  intros H0 H1. destruct (notifies s o) eqn:Hq; [reflexivity|].
  rewrite (quiet_keeps_unready k s o H0 Hq) in H1. discriminate H1.
Qed.

Lemma sys_step_const y e :
  y_kind (sys_step y e) = y_kind y /\ y_deadline (sys_step y e) = y_deadline y.
Proof.
  destruct e; cbn [sys_step]; yproj; try (split; reflexivity).
  - destruct (y_w y); try (split; reflexivity).
    destruct (ready _ _); [destruct (waiter_return _ _); split; reflexivity|].
    destruct (_ <=? _); split; reflexivity.
  - destruct (y_w y); split; reflexivity.
Qed.

Lemma sys_run_app y a b : sys_run y (a ++ b) = sys_run (sys_run y a) b.
Proof. apply fold_left_app. Qed.

Lemma sys_run_const es y :
  y_kind (sys_run y es) = y_kind y /\ y_deadline (sys_run y es) = y_deadline y.
Proof.
  apply (fold_left_invariant sys_step (fun y' => y_kind y' = y_kind y /\ y_deadline y' = y_deadline y));
    [|split; reflexivity].
  intros y' e _ [K D]. destruct (sys_step_const y' e) as [-> ->]. exact (conj K D).
Qed.

Lemma sys_step_now y e : y_now y <= y_now (sys_step y e).
Proof.
  destruct e; cbn [sys_step]; yproj; try lia.
  - destruct (y_w y); try lia.
    destruct (ready _ _); [destruct (waiter_return _ _); yproj; lia|].
    destruct (_ <=? _); yproj; lia.
  - destruct (y_w y); yproj; lia.
Qed.

Definition parked_inv (y : sys) : Prop :=
  y_w y = Parked -> ready (y_kind y) (y_tc y) = false.

Lemma parked_inv_step y e : parked_inv y -> parked_inv (sys_step y e).
Proof.
  unfold parked_inv. intros I. destruct e; cbn [sys_step].
  - (* signal *) yproj. destruct (y_w y) eqn:W; try discriminate.
    destruct (notifies (y_tc y) o) eqn:Nf; [discriminate|]. intros _.
    apply quiet_keeps_unready; [now apply I|exact Nf].
  - (* waiter *) destruct (y_w y) eqn:W.
    + destruct (ready (y_kind y) (y_tc y)) eqn:R.
      * destruct (waiter_return _ _); yproj; discriminate.
      * destruct (_ <=? _); yproj; [discriminate|]. intros _. exact R.
    + rewrite W. exact I.
    + rewrite W. discriminate.
  - (* spurious *) destruct (y_w y) eqn:W; yproj; try discriminate; rewrite W; discriminate.
  - (* tick *) yproj. destruct (y_w y) eqn:W; try discriminate.
    destruct (_ <=? _); [discriminate|]. intros _. now apply I.
Qed.

Lemma parked_inv_init w c k d : parked_inv (sys_init w c k d).
Proof. unfold parked_inv, sys_init; yproj. discriminate. Qed.

Lemma no_lost_wakeup w c k d es :
  let y := sys_run (sys_init w c k d) es in
  y_w y = Parked -> ready (y_kind y) (y_tc y) = false.
Proof.
  exact (fold_left_invariant sys_step parked_inv es (fun y e _ => parked_inv_step y e) _
           (parked_inv_init w c k d)).
Qed.

Lemma ready_return_not_timeout k s : ready k s = true -> snd (waiter_return k s) <> WTimeout.
Proof.
  unfold ready, waiter_return. destruct (t_cancelled s); [cbn [snd]; discriminate|].
  destruct k; [cbn [snd]; discriminate|].
  destruct (t_pending s); [cbn [snd]; discriminate|discriminate].
Qed.

Definition waiter_step_spec (y : sys) : Prop :=
  let k := y_kind y in
  let s := y_tc y in
  let y' := sys_step y EWaiter in
  (ready k s = true /\ y_w y' = Done (snd (waiter_return k s)) /\
   y_tc y' = fst (waiter_return k s) /\ snd (waiter_return k s) <> WTimeout)
  \/ (ready k s = false /\ y_deadline y <= y_now y /\ y_w y' = Done WTimeout /\ y_tc y' = s)
  \/ (ready k s = false /\ y_now y < y_deadline y /\ y_w y' = Parked /\ y_tc y' = s).

Lemma waiter_step y : y_w y = Runnable -> waiter_step_spec y.
Proof.
  intros W. unfold waiter_step_spec. cbn [sys_step]. rewrite W.
  destruct (ready (y_kind y) (y_tc y)) eqn:R.
  - left. pose proof (ready_return_not_timeout _ _ R) as NT.
    destruct (waiter_return (y_kind y) (y_tc y)) as [s' r]; yproj. cbn [snd] in NT. auto.
  - right. destruct (y_deadline y <=? y_now y) eqn:D; yproj; [left|right]; repeat split; auto; lia.
Qed.

Lemma timeout_not_early y :
  y_w y = Runnable -> y_w (sys_step y EWaiter) = Done WTimeout ->
  ready (y_kind y) (y_tc y) = false /\ y_deadline y <= y_now y.
Proof.
  intros W H. destruct (waiter_step y W) as [(R & E & _ & NT)|[(R & D & _)|(_ & _ & E & _)]].
  - rewrite E in H. injection H as H. contradiction.
  - split; assumption.
  - rewrite E in H. discriminate.
Qed.

Lemma waiter_idle y : y_w y <> Runnable -> sys_step y EWaiter = y.
Proof. intros W. cbn [sys_step]. destruct (y_w y); [contradiction| |]; reflexivity. Qed.

Lemma done_step y e r : y_w y = Done r -> y_w (sys_step y e) = Done r.
Proof.
  intros W. destruct e; cbn [sys_step]; rewrite W; yproj; try reflexivity; exact W.
Qed.

Lemma becomes_done y e r :
  y_w (sys_step y e) = Done r -> y_w y = Done r \/ e = EWaiter /\ y_w y = Runnable.
Proof.
  destruct e; cbn [sys_step]; yproj; destruct (y_w y) eqn:W; rewrite ?W; auto; try discriminate.
  - destruct (notifies _ _); discriminate.
  - destruct (_ <=? _); discriminate.
Qed.

Lemma returns_right_value w c k d es r :
  y_w (sys_run (sys_init w c k d) es) = Done r ->
  exists es1 es2, es = es1 ++ EWaiter :: es2 /\
    let y := sys_run (sys_init w c k d) es1 in
    y_w y = Runnable /\
    ((ready k (y_tc y) = true /\ r = snd (waiter_return k (y_tc y)) /\ r <> WTimeout) \/
     (ready k (y_tc y) = false /\ r = WTimeout /\ d <= y_now y)).
Proof.
  revert r. induction es as [|e es IH] using rev_ind; intros r H; [discriminate H|].
  rewrite sys_run_app in H. cbn [sys_run fold_left] in H.
  set (y := sys_run (sys_init w c k d) es) in *.
  destruct (becomes_done y e r H) as [W|[-> W]].
  - destruct (IH r W) as (es1 & es2 & -> & P).
    exists es1, (es2 ++ [e]). split; [now rewrite <- app_assoc|exact P].
  - exists es, []. split; [reflexivity|]. cbv zeta. fold y. split; [exact W|].
    destruct (sys_run_const es (sys_init w c k d)) as [K D]. fold y in K, D. cbn [sys_init y_kind y_deadline] in K, D.
    destruct (waiter_step y W) as [(R & E & _ & NT)|[(R & Dl & E & _)|(_ & _ & E & _)]];
      rewrite E in H; [| |discriminate]; injection H as <-.
    + left. rewrite K in R, NT |- *. auto.
    + right. rewrite K in R. rewrite D in Dl. auto.
Qed.

Lemma timeout_wakes y :
  y_w y = Parked -> y_deadline y <= y_now y + 1 -> y_w (sys_step y ETick) = Runnable.
Proof.
  intros W D. cbn [sys_step]; yproj. rewrite W.
  destruct (y_deadline y <=? y_now y + 1) eqn:E; [reflexivity|lia].
Qed.

Lemma timeout_returns y :
  y_w y = Runnable -> ready (y_kind y) (y_tc y) = false -> y_deadline y <= y_now y ->
  y_w (sys_step y EWaiter) = Done WTimeout.
Proof.
  intros W R D. cbn [sys_step]. rewrite W, R.
  destruct (y_deadline y <=? y_now y) eqn:E; [reflexivity|lia].
Qed.

(** the two together: a due deadline makes Timeout two steps away (enabledness; no fairness
    is assumed) *)
Lemma timeout_parked_then_returns y :
  y_w y = Parked -> ready (y_kind y) (y_tc y) = false -> y_deadline y <= y_now y + 1 ->
  y_w (sys_step (sys_step y ETick) EWaiter) = Done WTimeout.
Proof.
  intros W R D. apply timeout_returns.
  - now apply timeout_wakes.
  - cbn [sys_step]; yproj. exact R.
  - cbn [sys_step]; yproj. exact D.
Qed.

Lemma woken_then_returns y o :
  y_w y = Parked -> ready (y_kind y) (y_tc y) = false ->
  ready (y_kind y) (fst (step (y_tc y) o)) = true ->
  exists r, y_w (sys_step (sys_step y (ESignal o)) EWaiter) = Done r /\ r <> WTimeout /\
            r = snd (waiter_return (y_kind y) (fst (step (y_tc y) o))).
Proof.
  intros W R0 R1.
  pose proof (ready_needs_notify _ _ _ R0 R1) as Nf.
  set (y1 := sys_step y (ESignal o)).
  assert (W1 : y_w y1 = Runnable) by (unfold y1; cbn [sys_step]; yproj; now rewrite W, Nf).
  assert (K1 : y_kind y1 = y_kind y) by reflexivity.
  assert (S1 : y_tc y1 = fst (step (y_tc y) o)) by reflexivity.
  destruct (waiter_step y1 W1) as [(R & E & _ & NT)|[(R & _)|(R & _)]];
    rewrite K1, S1 in *; [|congruence|congruence].
  eexists. split; [exact E|]. split; [exact NT|reflexivity].
Qed.

(** the same for every reachable state (the invariant discharges [ready = false]) *)
Lemma woken_then_returns_reachable w c k d es o :
  let y := sys_run (sys_init w c k d) es in
  y_w y = Parked -> ready k (fst (step (y_tc y) o)) = true ->
  exists r, y_w (sys_step (sys_step y (ESignal o)) EWaiter) = Done r /\ r <> WTimeout.
Proof.
  cbv zeta. intros W R1. pose proof (no_lost_wakeup w c k d es W) as R0. cbv zeta in R0.
  pose proof (woken_then_returns _ o W) as H.
  rewrite (proj1 (sys_run_const es _)) in R0, H.
  destruct (H R0 R1) as (r & E & NT & _). eauto.
Qed.

Lemma wresult_eqb_refl r : wresult_eqb r r = true.
Proof. destruct r; cbn [wresult_eqb]; try reflexivity; apply N.eqb_refl. Qed.

Lemma wresult_eqb_eq a b : wresult_eqb a b = true -> a = b.
Proof.
  destruct a, b; cbn [wresult_eqb]; try discriminate; try reflexivity;
    intros H; apply N.eqb_eq in H; now subst.
Qed.

Lemma observe_cons y o ops :
  observe_history y (o :: ops) =
  (match y_w (sys_step (sys_step y (ESignal o)) EWaiter) with Done r => Returned r | _ => StillParked end)
    :: observe_history (sys_step (sys_step y (ESignal o)) EWaiter) ops.
Proof. reflexivity. Qed.

Lemma check12_returned k ops : forall s y, check12 k s true ops (observe_history y ops) = true.
Proof.
  induction ops as [|o ops IH]; intros s y; [reflexivity|].
  rewrite observe_cons. cbn [check12]. apply IH.
Qed.

Lemma signal_then_waiter y o :
  y_w y = Parked -> ready (y_kind y) (y_tc y) = false -> y_now y < y_deadline y ->
  let s' := fst (step (y_tc y) o) in
  let y' := sys_step (sys_step y (ESignal o)) EWaiter in
  if ready (y_kind y) s' then y_w y' = Done (snd (waiter_return (y_kind y) s'))
  else y' = mkSys s' Parked (y_now y) (y_deadline y) (y_kind y).
Proof.
  intros W R0 Dl. cbv zeta.
  destruct (ready (y_kind y) (fst (step (y_tc y) o))) eqn:R1.
  - destruct (woken_then_returns y o W R0 R1) as (r & E & _ & ->). exact E.
  - cbn [sys_step]. rewrite W. yproj.
    destruct (notifies (y_tc y) o); [|reflexivity]. rewrite R1.
    destruct (y_deadline y <=? y_now y) eqn:D; [lia|reflexivity].
Qed.

Lemma check12_parked ops : forall y,
  y_w y = Parked -> ready (y_kind y) (y_tc y) = false -> y_now y < y_deadline y ->
  check12 (y_kind y) (y_tc y) false ops (observe_history y ops) = true.
Proof.
  induction ops as [|o ops IH]; intros y W R0 Dl; [reflexivity|].
  rewrite observe_cons. cbn [check12].
  pose proof (signal_then_waiter y o W R0 Dl) as H. cbv zeta in H.
  destruct (ready (y_kind y) (fst (step (y_tc y) o))) eqn:R1.
  - rewrite H, wresult_eqb_refl. apply check12_returned.
  - rewrite H. exact (IH (mkSys _ Parked _ _ _) eq_refl R1 Dl).
Qed.

Lemma ok_model_C12 w c k pre ops : ok_C12 w c k pre ops (model_C12 w c k pre ops) = true.
Proof.
  unfold ok_C12, model_C12. cbn [fst snd sys_step y_w y_kind y_tc y_now y_deadline].
  change (1000000 <=? 0) with false.  (* [model_C12]'s deadline, far from its clock 0 *)
  destruct (ready k (exec (init w c) pre)) eqn:R.
  - destruct (waiter_return k (exec (init w c) pre)) as [s' r]. apply wresult_eqb_refl.
  - cbn [y_w negb andb].
    exact (check12_parked ops (mkSys _ Parked 0 1000000 k) eq_refl R eq_refl).
Qed.

Lemma ok_C12_first w c k pre ops o :
  ok_C12 w c k pre ops o = true ->
  match fst o with
  | Returned r => ready k (exec (init w c) pre) = true /\ r = snd (waiter_return k (exec (init w c) pre))
  | StillParked => ready k (exec (init w c) pre) = false
  end.
Proof.
  unfold ok_C12. destruct (fst o) as [|r]; intros H.
  - apply andb_prop in H. destruct H as [H _]. now apply negb_true_iff in H.
  - apply andb_prop in H. destruct H as [H1 H2]. split; [exact H1|]. now apply wresult_eqb_eq.
Qed.

Lemma check12_rejects_lost_wakeup k s o ops obs :
  ready k (fst (step s o)) = true -> check12 k s false (o :: ops) (StillParked :: obs) = false.
Proof. intros R. cbn [check12]. rewrite R. reflexivity. Qed.
