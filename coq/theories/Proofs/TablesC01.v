(** Agreement of the model's header table with the table re-read from
    /repo/src/header.rs and src/constants.rs by bin/extract-tables. *)
From RepeV Require Import Model.Header Gen.Tables.

Definition agrees {A} (src : option A) (m : A) : Prop :=
  match src with Some x => x = m | None => True end.

Lemma layout_is_table :
  map (fun '(o, w, _) => (o, w)) layout = map (fun '(o, w, _) => (o, w)) (offsets_of 0 header_table).
Proof. reflexivity. Qed.

Lemma header_encode_agrees : agrees src_header_encode header_table.
Proof. vm_compute. first [reflexivity | exact I]. Qed.
Lemma header_decode_agrees : agrees src_header_decode header_table.
Proof. vm_compute. first [reflexivity | exact I]. Qed.
Lemma header_size_agrees : agrees src_HEADER_SIZE HEADER_SIZE.
Proof. vm_compute. first [reflexivity | exact I]. Qed.
Lemma repe_spec_agrees : agrees src_REPE_SPEC REPE_SPEC.
Proof. vm_compute. first [reflexivity | exact I]. Qed.
Lemma repe_version_agrees : agrees src_REPE_VERSION REPE_VERSION.
Proof. vm_compute. first [reflexivity | exact I]. Qed.
