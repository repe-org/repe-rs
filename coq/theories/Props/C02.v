(** C02 — Hostile bytes never crash a parser or reader; only consistent frames parse. *)
From RepeV Require Import Model.C02 Proofs.HeaderProofs Proofs.MessageProofs Proofs.C01Proofs Proofs.C02Proofs.

(** no byte string makes a slice parser panic or abort: the unchecked [usize]
    additions and slice indexings of from_slice / MessageView::from_slice are
    modelled with their panicking semantics and shown unreachable *)
Theorem C02_decode_total : forall bs, crashes (decode bs) = false.
Proof. exact decode_total. Qed.
Theorem C02_from_slice_total : forall bs, crashes (from_slice bs) = false.
Proof. exact from_slice_total. Qed.
Theorem C02_from_slice_exact_total : forall bs, crashes (from_slice_exact bs) = false.
Proof. exact from_slice_exact_total. Qed.
Theorem C02_view_total : forall bs, crashes (view_from_slice bs) = false.
Proof. intros bs. rewrite view_eq_owned. apply from_slice_total. Qed.
Theorem C02_view_exact_total : forall bs, crashes (view_from_slice_exact bs) = false.
Proof. intros bs. rewrite view_exact_eq. apply from_slice_exact_total. Qed.

(** stream readers: whatever the stream holds and whatever the allocator
    answers, the result is a value or an error *)
Theorem C02_read_total : forall can_alloc src, crashes (read_message can_alloc src) = false.
Proof. exact read_message_total. Qed.
Theorem C02_read_into_total : forall can_alloc src, crashes (read_message_into can_alloc src) = false.
Proof. exact read_message_into_total. Qed.

(** a parse succeeds only on a consistent frame (sum in N, no wrap) and
    returns exactly the input's bytes; conversely every such frame parses *)
Theorem C02_parse_sound : forall bs m, from_slice bs = Ok m -> parse_ok bs m.
Proof. exact from_slice_ok. Qed.
Theorem C02_parse_complete : forall bs m, bytes_ok bs = true -> parse_ok bs m -> from_slice bs = Ok m.
Proof. intros bs m _. apply from_slice_complete. Qed.
Theorem C02_exact_sound : forall bs m,
  from_slice_exact bs = Ok m -> parse_ok bs m /\ lenN bs = h_length (m_hdr m).
Proof. exact from_slice_exact_ok. Qed.
Theorem C02_view_agrees : forall bs, view_from_slice bs = from_slice bs.
Proof. exact view_eq_owned. Qed.

(** a reader that succeeds consumed exactly the serialization of what it returns *)
Theorem C02_read_sound : forall can_alloc src m r,
  bytes_ok src = true -> read_message can_alloc src = Ok (m, r) -> src = to_vec m ++ r /\ msg_ok m = true.
Proof. exact read_message_ok. Qed.

(** truncation at every byte position is an error, for slices and streams *)
Theorem C02_truncated_slice : forall m n,
  msg_ok m = true -> (n < length (to_vec m))%nat -> exists e, from_slice (firstn n (to_vec m)) = Err e.
Proof. exact from_slice_truncated. Qed.
Theorem C02_truncated_stream : forall can_alloc m n,
  msg_ok m = true -> (n < length (to_vec m))%nat ->
  exists e, read_message can_alloc (firstn n (to_vec m)) = Err e.
Proof. exact read_message_truncated. Qed.

Theorem C02_holds : forall bs, bytes_ok bs = true -> ok_C02 bs (model_C02 bs) = true.
Proof. exact ok_model_C02. Qed.

(** non-vacuity and the boundary witnesses of the repaired defect (D1): a
    header whose lengths wrap to a consistent-looking total, one that declares
    2^62 bytes, and a valid frame *)
Definition hdr_bytes (len ql bl : N) : list byte :=
  encode (mkHeader len REPE_SPEC 1 0 0 7 ql bl 1 2 0).
Example C02_wrapping_sum_rejected :
  from_slice (hdr_bytes 10 18446744073709551595 (* 2^64-21 *) 27 ++ [1;2;3]) = Err ELenMismatch.
Proof. vm_compute. reflexivity. Qed.
Example C02_wrap_to_zero_rejected :
  from_slice (hdr_bytes 0 18446744073709551568 (* 2^64-48 *) 0) = Err ELenMismatch.
Proof. vm_compute. reflexivity. Qed.
Example C02_unallocatable_is_error :
  read_message can_alloc_R4 (hdr_bytes 4611686018427387952 4611686018427387904 (* 2^62 *) 0) = Err EOom.
Proof. vm_compute. reflexivity. Qed.
Example C02_valid_parses :
  exists m, from_slice (hdr_bytes 51 2 1 ++ [47; 97; 9]) = Ok m /\ m_query m = [47; 97] /\ m_body m = [9].
Proof. eexists. vm_compute. repeat split. Qed.

Check C02_decode_total : forall bs, crashes (decode bs) = false.
Check C02_from_slice_total : forall bs, crashes (from_slice bs) = false.
Check C02_from_slice_exact_total : forall bs, crashes (from_slice_exact bs) = false.
Check C02_view_total : forall bs, crashes (view_from_slice bs) = false.
Check C02_view_exact_total : forall bs, crashes (view_from_slice_exact bs) = false.
Check C02_read_total : forall can_alloc src, crashes (read_message can_alloc src) = false.
Check C02_read_into_total : forall can_alloc src, crashes (read_message_into can_alloc src) = false.
Check C02_parse_sound : forall bs m, from_slice bs = Ok m -> parse_ok bs m.
Check C02_parse_complete : forall bs m, bytes_ok bs = true -> parse_ok bs m -> from_slice bs = Ok m.
Check C02_exact_sound : forall bs m, from_slice_exact bs = Ok m -> parse_ok bs m /\ lenN bs = h_length (m_hdr m).
Check C02_view_agrees : forall bs, view_from_slice bs = from_slice bs.
Check C02_read_sound : forall can_alloc src m r, bytes_ok src = true ->
  read_message can_alloc src = Ok (m, r) -> src = to_vec m ++ r /\ msg_ok m = true.
Check C02_truncated_slice : forall m n, msg_ok m = true -> (n < length (to_vec m))%nat ->
  exists e, from_slice (firstn n (to_vec m)) = Err e.
Check C02_truncated_stream : forall can_alloc m n, msg_ok m = true -> (n < length (to_vec m))%nat ->
  exists e, read_message can_alloc (firstn n (to_vec m)) = Err e.
Check C02_holds : forall bs, bytes_ok bs = true -> ok_C02 bs (model_C02 bs) = true.

Print Assumptions C02_decode_total.
Print Assumptions C02_from_slice_total.
Print Assumptions C02_from_slice_exact_total.
Print Assumptions C02_view_total.
Print Assumptions C02_view_exact_total.
Print Assumptions C02_read_total.
Print Assumptions C02_read_into_total.
Print Assumptions C02_parse_sound.
Print Assumptions C02_parse_complete.
Print Assumptions C02_exact_sound.
Print Assumptions C02_view_agrees.
Print Assumptions C02_read_sound.
Print Assumptions C02_truncated_slice.
Print Assumptions C02_truncated_stream.
Print Assumptions C02_holds.

(** ** tie to the source text (see Props/C01.v): the re-translated bodies of the
    five slice parsers (Gen/FrameGen.v) and of the stream readers read_message,
    read_message_into, zeroed_payload and grow_zeroed of src/io.rs
    (Gen/ReadersGen.v), with Rust's panicking [+], slicing, indexing and
    [copy_from_slice] kept, equal the model's parsers / readers on every byte
    string, every stream and every allocator -- so the totality theorems above are
    statements about the text of src/header.rs, src/message.rs and src/io.rs.
    Oracles of the readers: [read_exact(r, ..)] is ONE [read_exact] of the model
    over the remaining stream; [try_reserve_exact] asks the model's [can_alloc] for
    the new total length ([n < two64]: the argument is a u64; spare capacity of a
    reused buffer is not modelled, so where the code would skip the allocator the
    rendering, like the model, still consults it). *)
From RepeV Require Import Base.GenFramePrelude Gen.FrameGen Proofs.FrameGenAgree.
From RepeV Require Import Base.GenVecPrelude Gen.ReadersGen Proofs.ReadersGenAgree.

Theorem C02_source_translation :
  agrees1 gen_decode decode /\
  agrees1 gen_from_slice from_slice /\
  agrees1 gen_from_slice_exact from_slice_exact /\
  agrees1 gen_view_from_slice view_from_slice /\
  agrees1 gen_view_from_slice_exact view_from_slice_exact /\
  match gen_grow_zeroed with
  | Some f => forall can_alloc buf n, lenN buf < two64 -> n < two64 ->
      f can_alloc buf n = (do _ <- alloc can_alloc (N.max (lenN buf) n); Ok (vec_resize buf n 0))
  | None => True
  end /\
  match gen_zeroed_payload with
  | Some f => forall can_alloc n, n < two64 ->
      f can_alloc n = (do _ <- alloc can_alloc n; Ok (repeat 0 (N.to_nat n)))
  | None => True
  end /\
  agrees2 gen_read_message read_message /\
  match gen_read_message_into with
  | Some f => forall can_alloc buf src, f can_alloc buf src = read_message_into can_alloc src
  | None => True
  end.
Proof.
  exact (conj decode_agrees (conj from_slice_agrees (conj from_slice_exact_agrees (conj view_from_slice_agrees
    (conj view_from_slice_exact_agrees (conj grow_zeroed_agrees (conj zeroed_payload_agrees
    (conj read_message_agrees read_message_into_agrees)))))))).
Qed.

Check C02_source_translation :
  agrees1 gen_decode decode /\
  agrees1 gen_from_slice from_slice /\
  agrees1 gen_from_slice_exact from_slice_exact /\
  agrees1 gen_view_from_slice view_from_slice /\
  agrees1 gen_view_from_slice_exact view_from_slice_exact /\
  match gen_grow_zeroed with
  | Some f => forall can_alloc buf n, lenN buf < two64 -> n < two64 ->
      f can_alloc buf n = (do _ <- alloc can_alloc (N.max (lenN buf) n); Ok (vec_resize buf n 0))
  | None => True
  end /\
  match gen_zeroed_payload with
  | Some f => forall can_alloc n, n < two64 ->
      f can_alloc n = (do _ <- alloc can_alloc n; Ok (repeat 0 (N.to_nat n)))
  | None => True
  end /\
  agrees2 gen_read_message read_message /\
  match gen_read_message_into with
  | Some f => forall can_alloc buf src, f can_alloc buf src = read_message_into can_alloc src
  | None => True
  end.

Print Assumptions C02_source_translation.
