(** C01 — Wire frames: canonical 48-byte layout, lossless round trip, one encoding.
    This file contains only statements (closed by [exact]), their pins and
    their assumptions. *)
From RepeV Require Import Model.C01 Gen.Tables Proofs.HeaderProofs Proofs.TablesC01 Proofs.MessageProofs Proofs.C01Proofs.

(** exactly 48 header bytes *)
Theorem C01_header_48 : forall h, length (encode h) = 48%nat.
Proof. exact encode_length. Qed.

(** the REPE v1 field order and little-endian placement, as an offset table
    stated independently of [encode] *)
Theorem C01_layout : forall h rest, hdr_ok h = true -> layout_ok h (encode h ++ rest) = true.
Proof. intros h rest H. exact (encode_layout h H rest). Qed.

(** the table pins every byte: whatever it accepts is the encoding *)
Theorem C01_layout_pins_bytes : forall h bs,
  bytes_ok bs = true -> layout_ok h bs = true -> firstn 48 bs = encode h.
Proof. intros h bs Hb H. apply (layout_ok_pins h bs Hb H). Qed.

(** header round trip, every field (reserved bits, unknown formats) preserved *)
Theorem C01_decode_encode : forall h rest,
  hdr_ok h = true -> h_spec h = REPE_SPEC -> h_length h = HEADER_SIZE + h_qlen h + h_blen h ->
  decode (encode h ++ rest) = Ok h.
Proof. intros h rest H. exact (decode_encode h H rest). Qed.

(** one encoding: accepted bytes are the encoding of what was returned *)
Theorem C01_one_encoding : forall bs h,
  bytes_ok bs = true -> decode bs = Ok h -> firstn 48 bs = encode h.
Proof. exact encode_decode. Qed.

(** message round trip, owned and borrowed parser *)
Theorem C01_round_trip : forall m rest,
  msg_ok m = true -> bytes_ok rest = true ->
  from_slice (to_vec m ++ rest) = Ok m /\ view_from_slice (to_vec m ++ rest) = Ok m.
Proof. intros m rest H1 _. rewrite view_eq_owned. split; exact (from_slice_round_trip m rest H1). Qed.

Theorem C01_frame_one_encoding : forall bs m,
  bytes_ok bs = true -> from_slice bs = Ok m ->
  firstn (N.to_nat (h_length (m_hdr m))) bs = to_vec m.
Proof. exact from_slice_to_vec. Qed.

(** every emission route produces [to_vec]: three-write routes, in-place reuse
    for every capacity, streaming for every chunking, server echo framing and
    WebSocket stamping *)
Theorem C01_routes_write : forall m, concat (write_chunks m) = to_vec m.
Proof. exact write_chunks_concat. Qed.

Theorem C01_routes_in_place : forall cap m, into_wire_bytes cap m = to_vec m.
Proof. exact into_wire_bytes_eq. Qed.

Theorem C01_routes_streaming : forall h q body chunks,
  concat chunks = body ->
  concat (write_streaming_chunks h q (lenN body) chunks)
  = to_vec (mkMessage (patch_lengths h (lenN q) (lenN body)) q body).
Proof. exact streaming_concat. Qed.

Theorem C01_routes_servers : forall resp req_q,
  lens_ok resp ->
  concat (server_frame resp req_q) = to_vec (framed resp req_q) /\
  into_wire_bytes (lenN (m_body resp)) (stamp resp req_q) = to_vec (framed resp req_q).
Proof.
  intros resp req_q H. rewrite server_frame_concat, into_wire_bytes_eq, (stamp_eq_framed _ _ H). split; reflexivity.
Qed.

(** the builder always produces a consistent message *)
Theorem C01_build_consistent : forall b,
  bytes_ok (b_query b) = true -> bytes_ok (b_body b) = true ->
  b_id b < two64 -> b_qfmt b < two16 -> b_bfmt b < two16 -> b_ec b < two32 ->
  HEADER_SIZE + lenN (b_query b) + lenN (b_body b) < two64 ->
  msg_ok (build b) = true.
Proof. exact build_ok. Qed.

(** the model's field order, widths and constants are the ones re-read from the
    Rust source on this run (each conjunct degrades to True if the source could
    not be parsed; the evidence then says so) *)
Theorem C01_source_tables :
  agrees src_header_encode header_table /\ agrees src_header_decode header_table /\
  agrees src_HEADER_SIZE HEADER_SIZE /\ agrees src_REPE_SPEC REPE_SPEC /\
  (forall h, encode h = encode_tbl header_table h).
Proof.
  exact (conj header_encode_agrees (conj header_decode_agrees (conj header_size_agrees
          (conj repe_spec_agrees encode_is_table)))).
Qed.

(** the executable oracle (also applied to the implementation's observations)
    accepts the model on every well-formed case *)
Theorem C01_holds : forall c, c01_wf c = true -> ok_C01 c (model_C01 c) = true.
Proof. exact ok_model_C01. Qed.

(** non-vacuity: a case with all-ones header fields, a 3-byte query, unknown
    format codes and non-zero reserved bits is well-formed and consistent *)
Example C01_nonvacuous :
  let c := mkC01 (mkHeader 52 REPE_SPEC 255 255 4294967295 18446744073709551615 3 1 65535 65535 4294967295)
             [47; 97; 98] [7] 60 [1] [9; 9] true in
  c01_wf c = true /\ (exists m, o_new (model_C01 c) = Ok m) /\ ok_C01 c (model_C01 c) = true.
Proof.
  intros c. assert (c01_wf c = true) as Hwf by reflexivity.
  split; [exact Hwf|]. split; [|exact (ok_model_C01 c Hwf)].
  exists (mkMessage (c_hdr c) (c_query c) (c_body c)). reflexivity.
Qed.

Check C01_header_48 : forall h, length (encode h) = 48%nat.
Check C01_layout : forall h rest, hdr_ok h = true -> layout_ok h (encode h ++ rest) = true.
Check C01_layout_pins_bytes : forall h bs, bytes_ok bs = true -> layout_ok h bs = true -> firstn 48 bs = encode h.
Check C01_decode_encode : forall h rest, hdr_ok h = true -> h_spec h = REPE_SPEC ->
  h_length h = HEADER_SIZE + h_qlen h + h_blen h -> decode (encode h ++ rest) = Ok h.
Check C01_one_encoding : forall bs h, bytes_ok bs = true -> decode bs = Ok h -> firstn 48 bs = encode h.
Check C01_round_trip : forall m rest, msg_ok m = true -> bytes_ok rest = true ->
  from_slice (to_vec m ++ rest) = Ok m /\ view_from_slice (to_vec m ++ rest) = Ok m.
Check C01_frame_one_encoding : forall bs m, bytes_ok bs = true -> from_slice bs = Ok m ->
  firstn (N.to_nat (h_length (m_hdr m))) bs = to_vec m.
Check C01_routes_write : forall m, concat (write_chunks m) = to_vec m.
Check C01_routes_in_place : forall cap m, into_wire_bytes cap m = to_vec m.
Check C01_routes_streaming : forall h q body chunks, concat chunks = body ->
  concat (write_streaming_chunks h q (lenN body) chunks)
  = to_vec (mkMessage (patch_lengths h (lenN q) (lenN body)) q body).
Check C01_routes_servers : forall resp req_q, lens_ok resp ->
  concat (server_frame resp req_q) = to_vec (framed resp req_q) /\
  into_wire_bytes (lenN (m_body resp)) (stamp resp req_q) = to_vec (framed resp req_q).
Check C01_build_consistent : forall b, bytes_ok (b_query b) = true -> bytes_ok (b_body b) = true ->
  b_id b < two64 -> b_qfmt b < two16 -> b_bfmt b < two16 -> b_ec b < two32 ->
  HEADER_SIZE + lenN (b_query b) + lenN (b_body b) < two64 -> msg_ok (build b) = true.
Check C01_source_tables :
  agrees src_header_encode header_table /\ agrees src_header_decode header_table /\
  agrees src_HEADER_SIZE HEADER_SIZE /\ agrees src_REPE_SPEC REPE_SPEC /\
  (forall h, encode h = encode_tbl header_table h).
Check C01_holds : forall c, c01_wf c = true -> ok_C01 c (model_C01 c) = true.

Print Assumptions C01_header_48.
Print Assumptions C01_layout.
Print Assumptions C01_layout_pins_bytes.
Print Assumptions C01_decode_encode.
Print Assumptions C01_one_encoding.
Print Assumptions C01_round_trip.
Print Assumptions C01_frame_one_encoding.
Print Assumptions C01_routes_write.
Print Assumptions C01_routes_in_place.
Print Assumptions C01_routes_streaming.
Print Assumptions C01_routes_servers.
Print Assumptions C01_build_consistent.
Print Assumptions C01_source_tables.
Print Assumptions C01_holds.

(** ** tie to the source text: the bodies of Header::decode, Header::encode,
    Message::new, Message::from_slice and Message::from_slice_exact (Gen/FrameGen.v)
    and of Header::new, Message::to_vec, Message::into_wire_bytes,
    MessageBuilder::build, stamp_response_query and response_echo_query
    (Gen/BuildGen.v), re-translated into Gallina by bin/rs2v on every run with every
    panicking operation kept ([add64], [slice_chk], [index_chk], [copy_chk],
    [copy_within_chk]), are the model's functions on all inputs.  encode: the code
    stores the two u8 fields as they are, the model writes [le_enc 1].  Message::new,
    to_vec, into_wire_bytes, build: the code adds [48 + |q| + |b|] with
    overflow-checked u64 [+] where the model adds in [N]; they differ exactly when
    that sum reaches 2^64, which no two Vec lengths can.  stamp_response_query adds
    the header's [body_length] field instead of [|b|]: that sum can reach 2^64 for a
    response whose header a handler filled in by hand, and exactly then the code
    panics (overflow checks on) where the model does not.  into_wire_bytes: [cap]
    is the capacity of the body vector (a parameter of the rendering and of the
    model).  Allocation ([Vec::with_capacity], growth) is assumed to succeed.  A
    function that could not be translated is [None] and its clause is [True]
    (reported by rs2v); a function whose meaning changed breaks the proof. *)
From RepeV Require Import Base.GenFramePrelude Gen.FrameGen Proofs.FrameGenAgree.
From RepeV Require Import Base.GenVecPrelude Gen.BuildGen Proofs.BuildGenAgree Proofs.BuildTables.

Theorem C01_source_translation :
  agrees1 gen_decode decode /\
  match gen_encode with
  | Some f => forall h, h_version h < 256 -> h_notify h < 256 -> f h = Ok (encode h)
  | None => True
  end /\
  match gen_msg_new with
  | Some f => forall h q b,
      f h q b = if HEADER_SIZE + lenN q + lenN b <? two64 then msg_new h q b else Panic
  | None => True
  end /\
  agrees1 gen_from_slice from_slice /\
  agrees1 gen_from_slice_exact from_slice_exact /\
  match gen_header_new with
  | Some f => f = Ok (mkHeader 0 REPE_SPEC REPE_VERSION 0 0 0 0 0 0 0 0)
  | None => True
  end /\
  match gen_to_vec with
  | Some f => forall m, h_version (m_hdr m) < 256 -> h_notify (m_hdr m) < 256 ->
      f m = if HEADER_SIZE + lenN (m_query m) + lenN (m_body m) <? two64 then Ok (to_vec m) else Panic
  | None => True
  end /\
  match gen_into_wire_bytes with
  | Some f => forall cap m, h_version (m_hdr m) < 256 -> h_notify (m_hdr m) < 256 ->
      f cap m = if HEADER_SIZE + lenN (m_query m) + lenN (m_body m) <? two64 then Ok (into_wire_bytes cap m) else Panic
  | None => True
  end /\
  match gen_build with
  | Some f => forall b,
      f b = if HEADER_SIZE + lenN (b_query b) + lenN (b_body b) <? two64 then Ok (build b) else Panic
  | None => True
  end /\
  match gen_stamp_response_query with
  | Some f => forall resp q,
      f resp q = if (lenN q =? 0) || negb (lenN (m_query resp) =? 0) || (HEADER_SIZE + lenN q + h_blen (m_hdr resp) <? two64)
                 then Ok (stamp resp q) else Panic
  | None => True
  end /\
  match gen_response_echo_query with
  | Some f => forall resp q, f resp q = Ok (echo_query (m_query resp) q)
  | None => True
  end.
Proof.
  exact (conj decode_agrees (conj encode_agrees (conj msg_new_agrees (conj from_slice_agrees (conj from_slice_exact_agrees
    (conj header_new_agrees (conj to_vec_agrees (conj into_wire_bytes_agrees (conj build_agrees
    (conj stamp_response_query_agrees response_echo_query_agrees)))))))))).
Qed.

(** the format codes written by [build] ([QueryFormat::RawBinary as u16] ..) are the source's *)
Theorem C01_source_format_codes :
  agrees src_QueryFormat_RawBinary QF_RAW_BINARY /\ agrees src_QueryFormat_JsonPointer QF_JSON_POINTER /\
  agrees src_BodyFormat_RawBinary BF_RAW_BINARY /\ agrees src_BodyFormat_Beve BF_BEVE /\
  agrees src_BodyFormat_Json BF_JSON /\ agrees src_BodyFormat_Utf8 BF_UTF8.
Proof. exact c01_format_codes_agree. Qed.

Check C01_source_translation :
  agrees1 gen_decode decode /\
  match gen_encode with
  | Some f => forall h, h_version h < 256 -> h_notify h < 256 -> f h = Ok (encode h)
  | None => True
  end /\
  match gen_msg_new with
  | Some f => forall h q b,
      f h q b = if HEADER_SIZE + lenN q + lenN b <? two64 then msg_new h q b else Panic
  | None => True
  end /\
  agrees1 gen_from_slice from_slice /\
  agrees1 gen_from_slice_exact from_slice_exact /\
  match gen_header_new with
  | Some f => f = Ok (mkHeader 0 REPE_SPEC REPE_VERSION 0 0 0 0 0 0 0 0)
  | None => True
  end /\
  match gen_to_vec with
  | Some f => forall m, h_version (m_hdr m) < 256 -> h_notify (m_hdr m) < 256 ->
      f m = if HEADER_SIZE + lenN (m_query m) + lenN (m_body m) <? two64 then Ok (to_vec m) else Panic
  | None => True
  end /\
  match gen_into_wire_bytes with
  | Some f => forall cap m, h_version (m_hdr m) < 256 -> h_notify (m_hdr m) < 256 ->
      f cap m = if HEADER_SIZE + lenN (m_query m) + lenN (m_body m) <? two64 then Ok (into_wire_bytes cap m) else Panic
  | None => True
  end /\
  match gen_build with
  | Some f => forall b,
      f b = if HEADER_SIZE + lenN (b_query b) + lenN (b_body b) <? two64 then Ok (build b) else Panic
  | None => True
  end /\
  match gen_stamp_response_query with
  | Some f => forall resp q,
      f resp q = if (lenN q =? 0) || negb (lenN (m_query resp) =? 0) || (HEADER_SIZE + lenN q + h_blen (m_hdr resp) <? two64)
                 then Ok (stamp resp q) else Panic
  | None => True
  end /\
  match gen_response_echo_query with
  | Some f => forall resp q, f resp q = Ok (echo_query (m_query resp) q)
  | None => True
  end.

Check C01_source_format_codes :
  agrees src_QueryFormat_RawBinary QF_RAW_BINARY /\ agrees src_QueryFormat_JsonPointer QF_JSON_POINTER /\
  agrees src_BodyFormat_RawBinary BF_RAW_BINARY /\ agrees src_BodyFormat_Beve BF_BEVE /\
  agrees src_BodyFormat_Json BF_JSON /\ agrees src_BodyFormat_Utf8 BF_UTF8.

Print Assumptions C01_source_translation.
Print Assumptions C01_source_format_codes.
