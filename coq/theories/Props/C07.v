(** C07 — All dispatch paths and route shapes give the same answer for the same
    request: struct segments are the RFC 6901 reference tokens at every depth,
    mounts receive exactly the covered paths, an exact route wins, middleware
    wraps every entry whatever the registration order.
    This file contains only statements (each derived in a line or two from the
    lemma of Proofs/ it is an instance of), their pins and their assumptions.
    Strings are byte lists: '/' = 47, '~' = 126, '0' = 48, '1' = 49. *)
From RepeV Require Import Model.JsonPtr Model.Router Proofs.JsonPtrProofs Proofs.RouterProofs.
From RepeV Require Import Gen.Tables Proofs.TablesC01 Proofs.TablesMisc.

(** ** struct segments vs RFC 6901 *)

(** a pointer has at most one token list *)
Theorem C07_render_inj : forall ts ts', render ts = render ts' -> ts = ts'.
Proof. exact render_inj. Qed.

(** for every well-escaped relative path that is empty or starts with '/', of
    any depth, the segments handed to the struct render back to the path: they
    are its RFC 6901 reference tokens *)
Theorem C07_segments_are_rfc6901_tokens : forall rel,
  well_escaped rel = true -> pointer_shaped rel = true -> render (struct_segments rel) = rel.
Proof. exact render_struct_segments. Qed.

Theorem C07_segments_unique : forall rel ts,
  well_escaped rel = true -> pointer_shaped rel = true -> render ts = rel -> struct_segments rel = ts.
Proof. intros rel ts _ _ <-. apply struct_segments_render. Qed.

(** every token list, of any length, with arbitrary bytes, is recovered *)
Theorem C07_segments_of_render : forall ts, struct_segments (render ts) = ts.
Proof. exact struct_segments_render. Qed.

(** the 16-slot stack array with its overflow vector hands over exactly the
    segments pushed, for every number of segments *)
Theorem C07_stack_buffer_transparent : forall segs,
  ss_result (fold_left ss_push segs ss_init) = segs.
Proof. exact stack_buffer_transparent. Qed.

Theorem C07_overflow_iff : forall segs,
  ss_overflow (fold_left ss_push segs ss_init) <> None <-> (STACK_SEGS < length segs)%nat.
Proof. exact ss_overflow_iff. Qed.

(** the escape-free fast path and [json_pointer::parse] agree *)
Theorem C07_fast_path_is_parse : forall rel, contains_tilde rel = false -> fast_segments rel = parse rel.
Proof. exact fast_segments_parse. Qed.

Theorem C07_struct_segments_is_parse : forall rel, struct_segments rel = parse rel.
Proof. exact struct_segments_parse. Qed.

(** ** mount matching *)

Theorem C07_matches_iff : forall pre p,
  matches pre p = true <-> pre = [] \/ p = pre \/ exists r, p = pre ++ 47 :: r.
Proof. exact matches_iff. Qed.

Theorem C07_no_boundary_no_match : forall pre c r,
  pre <> [] -> c <> 47 -> matches pre (pre ++ c :: r) = false.
Proof. exact matches_no_boundary. Qed.

(** a covered path reaches the mount with the prefix stripped and nothing else
    (a registry names its root "/") *)
Theorem C07_struct_relative_strips_only_prefix : forall pre p,
  matches pre p = true -> struct_relative pre p = Some (skipn (length pre) p).
Proof. exact struct_relative_covered. Qed.

Theorem C07_registry_pointer_strips_only_prefix : forall pre p,
  matches pre p = true ->
  registry_pointer pre p = Some (match skipn (length pre) p with [] => [47] | rel => rel end).
Proof. exact registry_pointer_covered. Qed.

Theorem C07_remaining_app : forall pre r : str, skipn (length pre) (pre ++ r) = r.
Proof. exact remaining_app. Qed.

(** registration normalises a registry prefix to one without trailing '/' *)
Theorem C07_registry_prefix_no_trailing_slash : forall p x, norm_prefix p <> x ++ [47].
Proof. exact norm_prefix_no_trailing_slash. Qed.

(** ** middleware uniformity *)

(** after any sequence of registrations every entry's dispatched slot is its
    raw handler wrapped by all middlewares registered so far, in registration
    order — whether the entry was registered before or after them *)
Theorem C07_mw_uniform : forall ops e,
  In e (r_map (run_ops ops) ++ r_regs (run_ops ops) ++ r_structs (run_ops ops)) ->
  e_disp e = (e_raw e, mws_of ops).
Proof. exact mw_uniform. Qed.

Theorem C07_mws_in_registration_order : forall ops, r_mws (run_ops ops) = mws_of ops.
Proof. intros ops. exact (ri_mws _ _ (run_inv_holds ops)). Qed.

(** ** lookup precedence *)

(** [Router::get] as a function of the registration history: the latest exact
    route for the path, else the first registry in registration order that
    covers it, else the first struct; always behind all middlewares *)
Theorem C07_lookup_precedence : forall ops p, lookup (run_ops ops) p = spec_lookup ops p.
Proof. exact lookup_spec. Qed.

Theorem C07_exact_wins : forall ops1 p h ops2,
  (forall h', ~ In (AddRoute p h') ops2) ->
  lookup (run_ops (ops1 ++ AddRoute p h :: ops2)) p = ARoute h (mws_of (ops1 ++ AddRoute p h :: ops2)).
Proof. exact exact_wins. Qed.

Theorem C07_exact_route_shadows_mounts : forall ops p h,
  In (AddRoute p h) ops -> exists h', lookup (run_ops ops) p = ARoute h' (mws_of ops).
Proof. exact exact_route_shadows_mounts. Qed.

(** with distinct handler identities: a mounted registry answers a path iff no
    exact route exists for it, no earlier registry covers it, and its own
    (normalised) prefix covers it *)
Theorem C07_registry_receives_iff : forall ops1 raw h ops2 p,
  let ops := ops1 ++ AddRegistry raw h :: ops2 in
  NoDup (hids ops) ->
  (answered_by (lookup (run_ops ops) p) = Some h
   <-> last_route ops p = None /\ no_cover (regs_of ops1) p /\ covers_prop (norm_prefix raw) p).
Proof. exact registry_receives_iff. Qed.

Theorem C07_struct_receives_iff : forall ops1 raw h ops2 p,
  let ops := ops1 ++ AddStruct raw h :: ops2 in
  NoDup (hids ops) ->
  (answered_by (lookup (run_ops ops) p) = Some h
   <-> last_route ops p = None /\ no_cover (regs_of ops) p /\ no_cover (structs_of ops1) p /\
       covers_prop (norm_root raw) p).
Proof. exact struct_receives_iff. Qed.

(** what it then receives *)
Theorem C07_registry_receives : forall ops1 raw h ops2 p,
  let ops := ops1 ++ AddRegistry raw h :: ops2 in
  let pre := norm_prefix raw in
  last_route ops p = None -> no_cover (regs_of ops1) p -> covers_prop pre p ->
  lookup (run_ops ops) p
  = AReg h (mws_of ops) (Some (match skipn (length pre) p with [] => [47] | rel => rel end)).
Proof. exact registry_receives. Qed.

Theorem C07_struct_receives : forall ops1 raw h ops2 p,
  let ops := ops1 ++ AddStruct raw h :: ops2 in
  let root := norm_root raw in
  last_route ops p = None -> no_cover (regs_of ops) p -> no_cover (structs_of ops1) p ->
  covers_prop root p ->
  lookup (run_ops ops) p = AStruct h (mws_of ops) (Some (struct_segments (skipn (length root) p))).
Proof. exact struct_receives. Qed.

(** a mount that does not cover a path has no influence on its answer *)
Theorem C07_registry_ignores : forall ops1 raw h ops2 p,
  ~ covers_prop (norm_prefix raw) p ->
  lookup (run_ops (ops1 ++ AddRegistry raw h :: ops2)) p = lookup (run_ops (ops1 ++ ops2)) p.
Proof.
  intros ops1 raw h ops2 p Hc. apply op_ignored; try reflexivity.
  cbn [regs_of find fst]. rewrite (matches_not_covered _ _ Hc). reflexivity.
Qed.

Theorem C07_struct_ignores : forall ops1 raw h ops2 p,
  ~ covers_prop (norm_root raw) p ->
  lookup (run_ops (ops1 ++ AddStruct raw h :: ops2)) p = lookup (run_ops (ops1 ++ ops2)) p.
Proof.
  intros ops1 raw h ops2 p Hc. apply op_ignored; try reflexivity.
  cbn [structs_of find fst]. rewrite (matches_not_covered _ _ Hc). reflexivity.
Qed.

(** ** the oracle *)

(** the executable oracle (also applied to the implementation's observations)
    accepts the model for every registration history and every list of paths *)
Theorem C07_holds : forall ops paths, ok_C07 ops paths (model_C07 ops paths) = true.
Proof. exact ok_model_C07. Qed.

(** what the oracle demands of a struct answer, in plain terms *)
Theorem C07_oracle_struct_sound : forall ops p h m segs,
  ok_answer ops p (AStruct h m (Some segs)) = true ->
  exists pre, In (pre, h) (structs_of ops) /\ covers_prop pre p /\ m = mws_of ops /\
    (well_escaped (skipn (length pre) p) = true -> pointer_shaped (skipn (length pre) p) = true ->
     render segs = skipn (length pre) p).
Proof. exact ok_answer_struct_sound. Qed.

(** the owned/borrowed/behind-middleware oracle: all variants gave one response *)
Theorem C07_pair_oracle_iff : forall rs,
  ok_C07_pair rs = true <-> exists r, rs <> [] /\ forall x, In x rs -> x = r.
Proof. exact ok_C07_pair_iff. Qed.

(** ** non-vacuity *)

(** "/a" repeated [n] times *)
Definition deep (n : nat) : str := concat (repeat [47; 97] n).

(** 16 segments stay in the stack array, 17 spill into the overflow vector;
    both are handed over completely *)
Example C07_boundary_16_17 :
  struct_segments (deep 16) = repeat [97] 16 /\
  struct_segments (deep 17) = repeat [97] 17 /\
  ss_overflow (fold_left ss_push (split_slash (strip_slash (deep 16))) ss_init) = None /\
  ss_overflow (fold_left ss_push (split_slash (strip_slash (deep 17))) ss_init) = Some (repeat [97] 17) /\
  well_escaped (deep 17) = true /\ pointer_shaped (deep 17) = true.
Proof. vm_compute. repeat split; reflexivity. Qed.

(** escapes, empty segments, "" and "/": "/a~1b/~0//~01" *)
Example C07_escapes :
  struct_segments [47; 97; 126; 49; 98; 47; 126; 48; 47; 47; 126; 48; 49]
  = [[97; 47; 98]; [126]; []; [126; 49]] /\
  struct_segments [] = [] /\ struct_segments [47] = [[]] /\
  render [[97; 47; 98]; [126]; []; [126; 49]] = [47; 97; 126; 49; 98; 47; 126; 48; 47; 47; 126; 48; 49].
Proof. vm_compute. repeat split; reflexivity. Qed.

(** malformed escapes are outside the quantifier: "/a~2", "/a~" *)
Example C07_malformed_outside :
  well_escaped [47; 97; 126; 50] = false /\ well_escaped [47; 97; 126] = false.
Proof. vm_compute. split; reflexivity. Qed.

(** "/ab" does not match prefix "/a"; "/a/b" and "/a" do; "" covers everything *)
Example C07_boundary_matching :
  matches [47; 97] [47; 97; 98] = false /\ matches [47; 97] [47; 97; 47; 98] = true /\
  matches [47; 97] [47; 97] = true /\ matches [] [47; 120] = true /\ matches [47; 97] [47] = false.
Proof. vm_compute. repeat split; reflexivity. Qed.

(** normalisation: a registry prefix loses trailing slashes ("//" becomes the
    root mount), a struct root does not *)
Example C07_normalisation :
  norm_prefix [97; 47; 47] = [47; 97] /\ norm_prefix [47; 47] = [] /\ norm_root [47; 47] = [47; 47] /\
  norm_root [97] = [47; 97] /\ norm_root [47] = [] /\ norm_prefix [47] = [].
Proof. vm_compute. repeat split; reflexivity. Qed.

(** a history with a middleware before and after the entries, an exact route,
    a registry and a root struct: "/a" -> route 1; "/a/b" -> registry 2 with
    pointer "/b"; "/a" again after re-registration -> route 4; "/ab" -> struct
    3 with segments ["ab"]; all behind middlewares 9 then 8 *)
Definition c07_ops : list rop :=
  [AddMw 9; AddRoute [47; 97] 1; AddRegistry [47; 97; 47] 2; AddStruct [] 3; AddMw 8].

Example C07_nonvacuous_model :
  model_C07 c07_ops [[47; 97]; [47; 97; 47; 98]; [47; 97; 98]; []]
  = [ARoute 1 [9; 8]; AReg 2 [9; 8] (Some [47; 98]); AStruct 3 [9; 8] (Some [[97; 98]]);
     AStruct 3 [9; 8] (Some [])] /\
  model_C07 (c07_ops ++ [AddRoute [47; 97] 4]) [[47; 97]] = [ARoute 4 [9; 8]] /\
  model_C07 [AddRegistry [47; 97] 2] [[47; 97]; [47; 97; 98]] = [AReg 2 [] (Some [47]); ANone] /\
  NoDup (hids c07_ops).
Proof. vm_compute. repeat split; try reflexivity. repeat constructor; cbn; intuition discriminate. Qed.

(** the oracle is not trivially true: it rejects the registry answering a path
    that only shares a string prefix with its mount point, a route answered
    without the middleware registered after it, a struct answer that lost the
    17th segment, and a mount answering a path an exact route is registered for *)
Example C07_oracle_rejects :
  ok_C07 c07_ops [[47; 97; 98]] [AReg 2 [9; 8] (Some [98])] = false /\
  ok_C07 c07_ops [[47; 97]] [ARoute 1 [9]] = false /\
  ok_C07 c07_ops [[47; 97]] [AReg 2 [9; 8] (Some [47])] = false /\
  ok_C07 [AddStruct [] 3] [deep 17] [AStruct 3 [] (Some (repeat [97] 16))] = false /\
  ok_C07 [AddStruct [] 3] [deep 17] [AStruct 3 [] (Some (repeat [97] 17))] = true /\
  ok_C07 [AddStruct [] 3] [[47; 97; 126; 49; 98]] [AStruct 3 [] (Some [[97]; [98]])] = false /\
  ok_C07 [AddStruct [] 3] [[47; 97; 126; 49; 98]] [AStruct 3 [] (Some [[97; 47; 98]])] = true.
Proof. vm_compute. repeat split; reflexivity. Qed.

Example C07_pair_oracle_rejects :
  ok_C07_pair [[1; 2]; [1; 2]; [1; 2]] = true /\ ok_C07_pair [[1; 2]; [1; 3]] = false /\ ok_C07_pair [] = false.
Proof. vm_compute. repeat split; reflexivity. Qed.

Check C07_render_inj : forall ts ts', render ts = render ts' -> ts = ts'.
Check C07_segments_are_rfc6901_tokens : forall rel,
  well_escaped rel = true -> pointer_shaped rel = true -> render (struct_segments rel) = rel.
Check C07_segments_unique : forall rel ts,
  well_escaped rel = true -> pointer_shaped rel = true -> render ts = rel -> struct_segments rel = ts.
Check C07_segments_of_render : forall ts, struct_segments (render ts) = ts.
Check C07_stack_buffer_transparent : forall segs,
  ss_result (fold_left ss_push segs ss_init) = segs.
Check C07_overflow_iff : forall segs,
  ss_overflow (fold_left ss_push segs ss_init) <> None <-> (STACK_SEGS < length segs)%nat.
Check C07_fast_path_is_parse : forall rel, contains_tilde rel = false -> fast_segments rel = parse rel.
Check C07_struct_segments_is_parse : forall rel, struct_segments rel = parse rel.
Check C07_matches_iff : forall pre p,
  matches pre p = true <-> pre = [] \/ p = pre \/ exists r, p = pre ++ 47 :: r.
Check C07_no_boundary_no_match : forall pre c r,
  pre <> [] -> c <> 47 -> matches pre (pre ++ c :: r) = false.
Check C07_struct_relative_strips_only_prefix : forall pre p,
  matches pre p = true -> struct_relative pre p = Some (skipn (length pre) p).
Check C07_registry_pointer_strips_only_prefix : forall pre p,
  matches pre p = true ->
  registry_pointer pre p = Some (match skipn (length pre) p with [] => [47] | rel => rel end).
Check C07_remaining_app : forall pre r : str, skipn (length pre) (pre ++ r) = r.
Check C07_registry_prefix_no_trailing_slash : forall p x, norm_prefix p <> x ++ [47].
Check C07_mw_uniform : forall ops e,
  In e (r_map (run_ops ops) ++ r_regs (run_ops ops) ++ r_structs (run_ops ops)) ->
  e_disp e = (e_raw e, mws_of ops).
Check C07_mws_in_registration_order : forall ops, r_mws (run_ops ops) = mws_of ops.
Check C07_lookup_precedence : forall ops p, lookup (run_ops ops) p = spec_lookup ops p.
Check C07_exact_wins : forall ops1 p h ops2,
  (forall h', ~ In (AddRoute p h') ops2) ->
  lookup (run_ops (ops1 ++ AddRoute p h :: ops2)) p = ARoute h (mws_of (ops1 ++ AddRoute p h :: ops2)).
Check C07_exact_route_shadows_mounts : forall ops p h,
  In (AddRoute p h) ops -> exists h', lookup (run_ops ops) p = ARoute h' (mws_of ops).
Check C07_registry_receives_iff : forall ops1 raw h ops2 p,
  let ops := ops1 ++ AddRegistry raw h :: ops2 in
  NoDup (hids ops) ->
  (answered_by (lookup (run_ops ops) p) = Some h
   <-> last_route ops p = None /\ no_cover (regs_of ops1) p /\ covers_prop (norm_prefix raw) p).
Check C07_struct_receives_iff : forall ops1 raw h ops2 p,
  let ops := ops1 ++ AddStruct raw h :: ops2 in
  NoDup (hids ops) ->
  (answered_by (lookup (run_ops ops) p) = Some h
   <-> last_route ops p = None /\ no_cover (regs_of ops) p /\ no_cover (structs_of ops1) p /\
       covers_prop (norm_root raw) p).
Check C07_registry_receives : forall ops1 raw h ops2 p,
  let ops := ops1 ++ AddRegistry raw h :: ops2 in
  let pre := norm_prefix raw in
  last_route ops p = None -> no_cover (regs_of ops1) p -> covers_prop pre p ->
  lookup (run_ops ops) p
  = AReg h (mws_of ops) (Some (match skipn (length pre) p with [] => [47] | rel => rel end)).
Check C07_struct_receives : forall ops1 raw h ops2 p,
  let ops := ops1 ++ AddStruct raw h :: ops2 in
  let root := norm_root raw in
  last_route ops p = None -> no_cover (regs_of ops) p -> no_cover (structs_of ops1) p ->
  covers_prop root p ->
  lookup (run_ops ops) p = AStruct h (mws_of ops) (Some (struct_segments (skipn (length root) p))).
Check C07_registry_ignores : forall ops1 raw h ops2 p,
  ~ covers_prop (norm_prefix raw) p ->
  lookup (run_ops (ops1 ++ AddRegistry raw h :: ops2)) p = lookup (run_ops (ops1 ++ ops2)) p.
Check C07_struct_ignores : forall ops1 raw h ops2 p,
  ~ covers_prop (norm_root raw) p ->
  lookup (run_ops (ops1 ++ AddStruct raw h :: ops2)) p = lookup (run_ops (ops1 ++ ops2)) p.
Check C07_holds : forall ops paths, ok_C07 ops paths (model_C07 ops paths) = true.
Check C07_oracle_struct_sound : forall ops p h m segs,
  ok_answer ops p (AStruct h m (Some segs)) = true ->
  exists pre, In (pre, h) (structs_of ops) /\ covers_prop pre p /\ m = mws_of ops /\
    (well_escaped (skipn (length pre) p) = true -> pointer_shaped (skipn (length pre) p) = true ->
     render segs = skipn (length pre) p).
Check C07_pair_oracle_iff : forall rs,
  ok_C07_pair rs = true <-> exists r, rs <> [] /\ forall x, In x rs -> x = r.

(** the definitions used above are the plain ones *)
Check (eq_refl : covers_prop = fun pre p => pre = [] \/ p = pre \/ exists r, p = pre ++ 47 :: r).
Check (eq_refl : no_cover = fun l p => forall m, In m l -> ~ covers_prop (fst m) p).
Check (eq_refl : remaining = fun pre p => skipn (length pre) p).
Check (eq_refl : render = fun ts => concat (map (fun t => 47 :: rfc_escape t) ts)).
Check (eq_refl : wrap = fun raw mws => (raw, mws)).

Print Assumptions C07_render_inj.
Print Assumptions C07_segments_are_rfc6901_tokens.
Print Assumptions C07_segments_unique.
Print Assumptions C07_segments_of_render.
Print Assumptions C07_stack_buffer_transparent.
Print Assumptions C07_overflow_iff.
Print Assumptions C07_fast_path_is_parse.
Print Assumptions C07_struct_segments_is_parse.
Print Assumptions C07_matches_iff.
Print Assumptions C07_no_boundary_no_match.
Print Assumptions C07_struct_relative_strips_only_prefix.
Print Assumptions C07_registry_pointer_strips_only_prefix.
Print Assumptions C07_remaining_app.
Print Assumptions C07_registry_prefix_no_trailing_slash.
Print Assumptions C07_mw_uniform.
Print Assumptions C07_mws_in_registration_order.
Print Assumptions C07_lookup_precedence.
Print Assumptions C07_exact_wins.
Print Assumptions C07_exact_route_shadows_mounts.
Print Assumptions C07_registry_receives_iff.
Print Assumptions C07_struct_receives_iff.
Print Assumptions C07_registry_receives.
Print Assumptions C07_struct_receives.
Print Assumptions C07_registry_ignores.
Print Assumptions C07_struct_ignores.
Print Assumptions C07_holds.
Print Assumptions C07_oracle_struct_sound.
Print Assumptions C07_pair_oracle_iff.

(** constants of the model are the ones re-read from the Rust source on this run *)
Theorem C07_source_tables :
  agrees src_STACK_SEGS (N.of_nat JsonPtr.STACK_SEGS).
Proof. exact c07_stack_segs_agree. Qed.
Check C07_source_tables :
  agrees src_STACK_SEGS (N.of_nat JsonPtr.STACK_SEGS).
Print Assumptions C07_source_tables.

(** the segment / mount functions of the model are the ones re-translated from the Rust source on this
    run (bin/rs2v, string mode: Gen/PointerGen.v, Proofs/PointerGenAgree.v): each rendering returns
    [Ok] of the model's value on every byte string -- no panic (the 16-slot stack array, [count += 1],
    [&stack[..count]]), same result; [SHandled segs]: the ONE [repe_handle] call gets exactly [segs];
    the hypothesis of [relative_pointer] says that the cut [&path[root.len()..]] made when [path] starts
    with [root] is a char boundary, which holds between any two [&str] *)
From RepeV Require Import Base.GenStrPrelude Gen.PointerGen Proofs.PointerGenAgree.

Theorem C07_source_translation :
  agrees1 gen_jp_parse (fun p => Ok (JsonPtr.parse p)) /\
  agrees1 gen_struct_segments (fun rel => Ok (SHandled (JsonPtr.struct_segments rel))) /\
  agrees2 gen_registry_matches (fun pre path => Ok (Router.matches pre path)) /\
  agrees2 gen_struct_matches (fun root path => Ok (Router.matches root path)) /\
  agrees2 gen_pointer_for (fun pre path => Ok (Router.registry_pointer pre path)) /\
  agrees1 gen_registry_prefix (fun prefix => Ok (Router.norm_prefix prefix)) /\
  agrees1 gen_struct_root (fun root => Ok (Router.norm_root root)) /\
  match gen_relative_pointer with
  | Some f => forall root path,
      (s_starts_with root path = true -> is_char_boundary path (len_n root) = true) ->
      f root path = Ok (Router.struct_relative root path)
  | None => True
  end.
Proof.
  exact (conj jp_parse_agrees_c07 (conj struct_segments_agrees (conj registry_matches_agrees_c07
        (conj struct_matches_agrees (conj pointer_for_agrees_c07 (conj registry_prefix_agrees
        (conj struct_root_agrees relative_pointer_agrees))))))).
Qed.
Check C07_source_translation :
  agrees1 gen_jp_parse (fun p => Ok (JsonPtr.parse p)) /\
  agrees1 gen_struct_segments (fun rel => Ok (SHandled (JsonPtr.struct_segments rel))) /\
  agrees2 gen_registry_matches (fun pre path => Ok (Router.matches pre path)) /\
  agrees2 gen_struct_matches (fun root path => Ok (Router.matches root path)) /\
  agrees2 gen_pointer_for (fun pre path => Ok (Router.registry_pointer pre path)) /\
  agrees1 gen_registry_prefix (fun prefix => Ok (Router.norm_prefix prefix)) /\
  agrees1 gen_struct_root (fun root => Ok (Router.norm_root root)) /\
  match gen_relative_pointer with
  | Some f => forall root path,
      (s_starts_with root path = true -> is_char_boundary path (len_n root) = true) ->
      f root path = Ok (Router.struct_relative root path)
  | None => True
  end.
Print Assumptions C07_source_translation.
