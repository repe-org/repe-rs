(** C04 — Multiplexed calls each receive their own response, whatever the
    order.  Statements over every step list (= every interleaving of callers
    and reader at the register / write / receive-and-match / deliver / timeout /
    cancel granularity; a step that the per-caller program order does not allow
    at that moment is a stutter), their pins and their assumptions. *)
From RepeV Require Import Model.ClientMux Proofs.ClientMuxProofs.

(** without caller-supplied ids, every pending id was issued before: it is below the counter *)
Theorem C04_ids_fresh : forall ws l id c, N.of_nat (length l) + 2 < two64 -> existsb is_forward l = false ->
  In (id, c) (m_pending (run ws mux0 l)) -> id < m_next (run ws mux0 l).
Proof.
  intros ws l id c Hb Hnf Hin.
  exact (C_lt _ _ (proj2 (nofwd_reach ws l Hb Hnf)) _ _ (pending_issued ws _ id c (Inv_reach ws l) Hin) eq_refl).
Qed.

(** [all_fresh]: no ACCEPTED registration reuses an id -- the id of every
    Register / Forward step is either pending at that moment (then the step is
    refused) or was never registered on this connection.  Step lists without
    caller-supplied ids (the blocking and the WebSocket client have none) satisfy
    it outright.  Since the repair of the async client's cleanup guard it is
    needed only for the two statements that are about reuse itself:
    [C04_ids_distinct] and [C04_legacy_guard_same_without_reuse]. *)
Theorem C04_all_fresh_without_forward : forall ws l, N.of_nat (length l) + 2 < two64 ->
  existsb is_forward l = false -> all_fresh ws mux0 l = true.
Proof. intros ws l Hb Hnf. exact (proj1 (nofwd_reach ws l Hb Hnf)). Qed.

(** the ids drawn from the counter strictly increase (below 2^64 - 3 steps, i.e.
    before the counter can wrap): the id a later counter call draws is greater
    than the one an earlier counter call drew, whatever happens in between,
    caller-supplied ids included *)
Theorem C04_counter_ids_increase : forall ws l1 l2 c,
  N.of_nat (length l1 + length l2) + 3 < two64 -> enabled (run ws mux0 l1) (Register c) = true ->
  m_next (run ws mux0 l1) < m_next (run ws mux0 (l1 ++ Register c :: l2)).
Proof.
  intros ws l1 l2 c Hb. rewrite run_app. apply register_increases, reach_budget. cbn [length]. lia.
Qed.

(** the cleanup that removes a call's entry by id alone (the blocking client's
    remove_pending, the WebSocket client's guard, the async client's guard before
    its repair) is the same function as the repaired one on every run in which
    no id is registered twice -- in particular on every run of the two clients
    that have no caller-supplied ids *)
Theorem C04_legacy_guard_same_without_reuse : forall ws l, N.of_nat (length l) + 2 < two64 ->
  all_fresh ws mux0 l = true -> run_legacy ws mux0 l = run ws mux0 l.
Proof. intros ws l _ Hf. exact (proj2 (fresh_reach ws l Hf)). Qed.

(** all the ids registered on one connection (counter-issued or caller-supplied),
    and those put on the wire, are pairwise distinct exactly as long as no id is
    reused *)
Theorem C04_ids_distinct : forall ws l, N.of_nat (length l) + 2 < two64 -> all_fresh ws mux0 l = true ->
  NoDup (map snd (m_issued (run ws mux0 l))) /\ NoDup (map snd (m_wire (run ws mux0 l))).
Proof.
  intros ws l _ Hf. pose proof (proj1 (fresh_reach ws l Hf)) as HU.
  exact (conj HU (wire_distinct ws _ (Inv_reach ws l) HU)).
Qed.

(** the pending map is injective both ways: one entry per id, one id per caller *)
Theorem C04_pending_inj : forall ws l, N.of_nat (length l) + 2 < two64 ->
  NoDup (map fst (m_pending (run ws mux0 l))) /\
  forall id1 id2 c, In (id1, c) (m_pending (run ws mux0 l)) -> In (id2, c) (m_pending (run ws mux0 l)) -> id1 = id2.
Proof.
  intros ws l _. pose proof (Inv_reach ws l) as HI. split; [exact (I_pend_nd _ _ HI)|].
  intros id1 id2 c. exact (pending_inj_inv ws _ id1 id2 c HI).
Qed.

(** without caller-supplied ids the id about to be issued is never pending: the
    duplicate-id refusal of the async and WebSocket clients cannot fire, and the
    blocking client's unchecked insert never replaces an entry *)
Theorem C04_register_never_collides : forall ws l, N.of_nat (length l) + 2 < two64 -> existsb is_forward l = false ->
  aget (m_pending (run ws mux0 l)) (m_next (run ws mux0 l)) = None.
Proof.
  intros ws l Hb Hnf. exact (Low_pending ws _ (Inv_reach ws l) (proj2 (nofwd_reach ws l Hb Hnf))).
Qed.

(** whatever is delivered to caller c carries the id issued to c *)
Theorem C04_own_response : forall ws l c f, N.of_nat (length l) + 2 < two64 ->
  In (c, OGot f) (m_out (run ws mux0 l)) -> aget (m_issued (run ws mux0 l)) c = Some (f_id f).
Proof. intros ws l c f _. exact (own_response_inv ws _ c f (Inv_reach ws l)). Qed.

(** a call ends at most once *)
Theorem C04_at_most_one : forall ws l, N.of_nat (length l) + 2 < two64 ->
  NoDup (map fst (m_out (run ws mux0 l))).
Proof. intros ws l _. exact (I_out_nd _ _ (Inv_reach ws l)). Qed.

(** a response whose id is not pending changes nothing but the drop log *)
Theorem C04_unknown_dropped : forall ws s f,
  m_matched s = None -> ws && negb (f_notify f =? 0) = false -> aget (m_pending s) (f_id f) = None ->
  mstep ws s (Recv f)
  = mkMux (m_next s) (m_pending s) (m_issued s) (m_wire s) (m_matched s) (m_out s) (m_sub s) (m_dropped s ++ [f]).
Proof. intros ws s f M E P. rewrite mstep_recv, (deliver_none s M). exact (route_drop ws s f E P). Qed.

(** a second response with the same id is dropped, in every state *)
Theorem C04_duplicate_dropped : forall ws s f f',
  ws && negb (f_notify f =? 0) = false -> ws && negb (f_notify f' =? 0) = false -> f_id f' = f_id f ->
  let s1 := mstep ws s (Recv f) in
  let d := deliver s1 in
  mstep ws s1 (Recv f')
  = mkMux (m_next d) (m_pending d) (m_issued d) (m_wire d) (m_matched d) (m_out d) (m_sub d) (m_dropped d ++ [f']).
Proof.
  intros ws s f f' E E' Hid s1 d. rewrite mstep_recv. apply (route_drop ws d f' E').
  unfold d. rewrite deliver_eq, Hid. exact (recv_clears_id ws s f E).
Qed.

(** WebSocket client: a frame with the notify byte set, whatever its id (in
    flight or not), leaves the pending map alone, reaches the subscriber, and
    is neither matched nor dropped *)
Theorem C04_ws_notify_to_subscriber_only : forall s f, f_notify f <> 0 ->
  let s' := mstep true s (Recv f) in
  m_pending s' = m_pending s /\ m_out s' = m_out (deliver s) /\ m_sub s' = m_sub s ++ [f] /\
  m_dropped s' = m_dropped (deliver s) /\ m_matched s' = None.
Proof.
  intros s f Hn s'. unfold s'. rewrite mstep_recv, (route_notify _ f Hn). simp_m.
  rewrite deliver_matched, (deliver_eq s). repeat split; reflexivity.
Qed.

(** WebSocket client: no call ever returns a notification frame *)
Theorem C04_ws_no_notify_to_caller : forall l c f, N.of_nat (length l) + 2 < two64 ->
  In (c, OGot f) (m_out (run true mux0 l)) -> f_notify f = 0.
Proof.
  intros l c f _ Hin. exact (proj2 (I_out _ _ (Inv_reach true l) _ _ Hin) eq_refl).
Qed.

(** a step that the program order does not enable is a stutter *)
Theorem C04_disabled_stutter : forall ws s st, enabled s st = false -> mstep ws s st = s.
Proof. exact mstep_disabled. Qed.

(** AsyncClient::forward_message with an id that is in flight: the registration
    is refused and nothing changes but the refused call's own outcome (the
    owner's pending entry survives); the next response with that id is still
    matched to the owner; and in every continuation whatever the owner is
    handed carries that id *)
Theorem C04_forward_duplicate_refused : forall ws l0 c id o,
  N.of_nat (length l0) + 2 < two64 ->
  let s := run ws mux0 l0 in
  aget (m_pending s) id = Some o -> enabled s (Forward c id) = true ->
  let s' := mstep ws s (Forward c id) in
  s' = mkMux (m_next s) (m_pending s) (m_issued s) (m_wire s) (m_matched s) (m_out s ++ [(c, ORefused)]) (m_sub s) (m_dropped s) /\
  (forall f, m_matched s = None -> ws && negb (f_notify f =? 0) = false -> f_id f = id ->
     m_matched (mstep ws s' (Recv f)) = Some (o, f)) /\
  (forall l f, N.of_nat (length l0 + length l) + 3 < two64 ->
     In (o, OGot f) (m_out (run ws s' l)) -> f_id f = id).
Proof.
  intros ws l0 c id o Hb s P En s'. pose proof (forward_refused_state ws s c id o P En) as E. fold s' in E.
  split; [exact E|]. split.
  - intros f M Ef <-. apply recv_matches; [rewrite E; exact M|exact Ef|rewrite E; exact P].
  - intros l f _. exact (owner_keeps_id ws s id o (Forward c id :: l) f (Inv_reach ws l0) P).
Qed.

(** batch: for every schedule of the workers, a stored result sits at the index
    of the request it answers; once the queue is empty and no worker holds an
    item, every request has its result *)
Theorem C04_batch_aligned : forall res_of reqs sched i r,
  nth_error (b_res (brun res_of reqs sched)) i = Some (Some r) ->
  exists q, nth_error reqs i = Some q /\ r = res_of q.
Proof. intros res_of reqs sched. exact (B_res _ _ _ (Binv_run res_of reqs sched)). Qed.

Theorem C04_batch_complete : forall res_of reqs sched i q,
  b_queue (brun res_of reqs sched) = [] -> b_hold (brun res_of reqs sched) = [] ->
  nth_error reqs i = Some q ->
  nth_error (b_res (brun res_of reqs sched)) i = Some (Some (res_of q)).
Proof. intros res_of reqs sched i q. exact (Binv_complete _ _ _ i q (Binv_run res_of reqs sched)). Qed.

(** the executable oracle accepts the model on every well-formed case *)
Theorem C04_holds : forall cs, c04_wf cs = true -> ok_C04 cs (model_C04 cs) = true.
Proof. exact ok_model_C04. Qed.

(** a WebSocket client without a notification subscriber: the notifications
    are dropped, no call is affected *)
Theorem C04_holds_nosub : forall cs, c04_wf cs = true -> ok_C04_nosub cs (model_C04_nosub cs) = true.
Proof. intros cs H. exact (ok_C04_drop_sub cs _ (C04_holds cs H)). Qed.

(** ** non-vacuity *)

(** three callers on a WebSocket client; the server answers 2, 0, 1 with an
    unknown id (7), a notification reusing caller 1's id, and a second copy of
    the reply to 2 in between; caller 1's frame is matched, then the caller
    times out before the reader hands it over *)
Definition c04_ex : c04_case :=
  mkCase true 3
    [Register 1; Register 0; Write 0; Register 2; Write 2; Write 1;
     Srv (SReply 2 0); Deliver; Srv (SUnknown 7 1); Srv (SNotify 1 2);
     Srv (SReply 0 0); Srv (SReply 2 3); Srv (SReply 1 0); Timeout 1; Deliver].

Example C04_nonvacuous_wf : c04_wf c04_ex = true.
Proof. vm_compute. reflexivity. Qed.

Example C04_nonvacuous_obs :
  model_C04 c04_ex = mkObs [CGot 0; CTimeout; CGot 2] [tag_of 1 2] [1; 2; 3].
Proof. vm_compute. reflexivity. Qed.

Example C04_nonvacuous_state :
  let s := run true mux0 (c_sched c04_ex) in
  m_issued s = [(1, 1); (0, 2); (2, 3)] /\ m_pending s = [] /\ m_next s = 4 /\
  map f_tag (m_dropped s) = [tag_of unknown_k 1; tag_of 2 3; tag_of 1 0].
Proof. vm_compute. repeat split; reflexivity. Qed.

(** the oracle rejects: a swapped pair of replies, a notification returned to a
    caller, a lost reply, a notification that did not reach the subscriber, a
    repeated request id *)
Example C04_oracle_rejects :
  ok_C04 c04_ex (mkObs [CGot 2; CTimeout; CGot 0] [tag_of 1 2] [1; 2; 3]) = false /\
  ok_C04 c04_ex (mkObs [CGot 0; CGot (tag_of 1 2); CGot 2] [tag_of 1 2] [1; 2; 3]) = false /\
  ok_C04 c04_ex (mkObs [CClosed; CTimeout; CGot 2] [tag_of 1 2] [1; 2; 3]) = false /\
  ok_C04 c04_ex (mkObs [CGot 0; CTimeout; CGot 2] [] [1; 2; 3]) = false /\
  ok_C04 c04_ex (mkObs [CGot 0; CTimeout; CGot 2] [tag_of 1 2] [1; 2; 2]) = false /\
  ok_C04 c04_ex (mkObs [CGot 0; CBad 1; CGot 2] [tag_of 1 2] [1; 2; 3]) = false.
Proof. vm_compute. repeat split; reflexivity. Qed.

(** the hypotheses of the step theorems are satisfiable: in the state after the
    three registrations and writes, id 7 is unknown, id 3 is pending, and a
    notification reusing id 3 changes no pending entry *)
Example C04_nonvacuous_steps :
  let s := run true mux0 (firstn 6 (c_sched c04_ex)) in
  m_matched s = None /\ aget (m_pending s) 7 = None /\ aget (m_pending s) 3 = Some 2 /\
  m_pending (mstep true s (Recv (mkFrame 3 1 99))) = m_pending s /\
  m_sub (mstep true s (Recv (mkFrame 3 1 99))) = [mkFrame 3 1 99] /\
  (* the TCP clients do not look at the notify byte: the same frame is matched *)
  m_matched (mstep false s (Recv (mkFrame 3 1 99))) = Some (2, mkFrame 3 1 99).
Proof. vm_compute. repeat split; reflexivity. Qed.

(** forwarded ids on an AsyncClient: two counter calls in flight (ids 1, 2); a
    forward with the in-flight id 2 is refused and caller 1 (the owner) still
    gets its response; a forward with the free id 9 is answered; a forward with
    id 3, which the counter reaches next, makes the next counter call (caller 5)
    fail with the duplicate error while the call after it (caller 6, id 4) is
    fine; a forwarded notify returns Ok(None) *)
Definition c04_fwd : c04_case :=
  mkCase false 8
    [Register 0; Write 0; Register 1; Write 1; Forward 2 2; Forward 3 9; Write 3; Forward 4 3; Write 4;
     Register 5; Register 6; Write 6; FwdNotify 7;
     Srv (SReply 4 0); Srv (SReply 1 0); Srv (SReply 6 0); Srv (SReply 3 0); Srv (SReply 0 0)].

Example C04_nonvacuous_forward :
  c04_wf c04_fwd = true /\
  model_C04 c04_fwd = mkObs [CGot 0; CGot 1; CRefused; CGot 3; CGot 4; CRefused; CGot 6; CNone] [] [1; 2; 4].
Proof. vm_compute. split; reflexivity. Qed.

(** the oracle rejects the owner losing its response to a refused duplicate *)
Example C04_oracle_rejects_forward :
  ok_C04 c04_fwd (mkObs [CGot 0; CClosed; CRefused; CGot 3; CGot 4; CRefused; CGot 6; CNone] [] [1; 2; 4]) = false /\
  ok_C04 c04_fwd (mkObs [CGot 0; CGot 1; CRefused; CGot 3; CGot 4; CRefused; CGot 6; CRefused] [] [1; 2; 4]) = false.
Proof. vm_compute. split; reflexivity. Qed.

(** id reuse.  Caller 0's response (id 1) has been taken out of the pending map
    by the reader but not yet handed over; a forward with id 1 is accepted (the
    id is free again); caller 0 times out.  Before the repair the guard removed
    "its" entry by id -- which by then belonged to caller 1: the response to
    caller 1 was dropped as unknown and caller 1 never got it ([model_C04_legacy]
    violates the oracle).  The repaired guard leaves caller 1's entry alone and
    caller 1 gets its own response: the case is well-formed and the oracle holds. *)
Definition c04_reuse : c04_case :=
  mkCase false 2
    [Register 0; Write 0; Srv (SReply 0 0); Forward 1 1; Write 1; Timeout 0; Deliver; Srv (SReply 1 0)].

Example C04_id_reuse_refuted :
  all_fresh false mux0 (c_sched c04_reuse) = false /\
  model_C04_legacy c04_reuse = mkObs [CTimeout; CClosed] [] [1] /\
  ok_C04 c04_reuse (model_C04_legacy c04_reuse) = false.
Proof. vm_compute. repeat split; reflexivity. Qed.

Example C04_id_reuse_repaired :
  c04_wf c04_reuse = true /\
  model_C04 c04_reuse = mkObs [CTimeout; CGot 1] [] [1] /\
  ok_C04 c04_reuse (model_C04 c04_reuse) = true.
Proof. vm_compute. repeat split; reflexivity. Qed.

(** what remains a hypothesis ([all_srv_own] in [c04_wf]) and why: responses are
    correlated by id alone.  Caller 0 gives up, its id 1 is registered again by
    caller 1, and then the response to caller 0's request arrives after all: it
    carries id 1 and no client can tell it from the response to caller 1's
    request -- caller 1 is handed it. *)
Definition c04_late : c04_case :=
  mkCase false 2 [Register 0; Write 0; Timeout 0; Forward 1 1; Write 1; Srv (SReply 0 0)].

Example C04_late_reply_after_reuse :
  all_enabled false mux0 (c_sched c04_late) = true /\
  all_srv_own false mux0 (c_sched c04_late) = false /\
  model_C04 c04_late = mkObs [CTimeout; CGot 0] [] [1] /\
  ok_C04 c04_late (model_C04 c04_late) = false.
Proof. vm_compute. repeat split; reflexivity. Qed.

(** batch: 5 requests, 2 workers, an uneven schedule; result = request + 100 *)
Example C04_nonvacuous_batch :
  b_res (brun (fun q => q + 100) [10; 11; 12; 13; 14] [0; 1; 1; 1; 0; 1; 0; 0; 1; 1])
  = [Some 110; Some 111; Some 112; Some 113; Some 114] /\
  b_queue (brun (fun q => q + 100) [10; 11; 12; 13; 14] [0; 1; 1; 1; 0; 1; 0; 0; 1; 1]) = [] /\
  b_hold (brun (fun q => q + 100) [10; 11; 12; 13; 14] [0; 1; 1; 1; 0; 1; 0; 0; 1; 1]) = [].
Proof. vm_compute. repeat split; reflexivity. Qed.

Check C04_all_fresh_without_forward : forall ws l, N.of_nat (length l) + 2 < two64 ->
  existsb is_forward l = false -> all_fresh ws mux0 l = true.
Check C04_forward_duplicate_refused : forall ws l0 c id o,
  N.of_nat (length l0) + 2 < two64 ->
  let s := run ws mux0 l0 in
  aget (m_pending s) id = Some o -> enabled s (Forward c id) = true ->
  let s' := mstep ws s (Forward c id) in
  s' = mkMux (m_next s) (m_pending s) (m_issued s) (m_wire s) (m_matched s) (m_out s ++ [(c, ORefused)]) (m_sub s) (m_dropped s) /\
  (forall f, m_matched s = None -> ws && negb (f_notify f =? 0) = false -> f_id f = id ->
     m_matched (mstep ws s' (Recv f)) = Some (o, f)) /\
  (forall l f, N.of_nat (length l0 + length l) + 3 < two64 ->
     In (o, OGot f) (m_out (run ws s' l)) -> f_id f = id).
Check C04_counter_ids_increase : forall ws l1 l2 c,
  N.of_nat (length l1 + length l2) + 3 < two64 -> enabled (run ws mux0 l1) (Register c) = true ->
  m_next (run ws mux0 l1) < m_next (run ws mux0 (l1 ++ Register c :: l2)).
Check C04_legacy_guard_same_without_reuse : forall ws l, N.of_nat (length l) + 2 < two64 ->
  all_fresh ws mux0 l = true -> run_legacy ws mux0 l = run ws mux0 l.
Check C04_ids_fresh : forall ws l id c, N.of_nat (length l) + 2 < two64 -> existsb is_forward l = false ->
  In (id, c) (m_pending (run ws mux0 l)) -> id < m_next (run ws mux0 l).
Check C04_ids_distinct : forall ws l, N.of_nat (length l) + 2 < two64 -> all_fresh ws mux0 l = true ->
  NoDup (map snd (m_issued (run ws mux0 l))) /\ NoDup (map snd (m_wire (run ws mux0 l))).
Check C04_pending_inj : forall ws l, N.of_nat (length l) + 2 < two64 ->
  NoDup (map fst (m_pending (run ws mux0 l))) /\
  forall id1 id2 c, In (id1, c) (m_pending (run ws mux0 l)) -> In (id2, c) (m_pending (run ws mux0 l)) -> id1 = id2.
Check C04_register_never_collides : forall ws l, N.of_nat (length l) + 2 < two64 -> existsb is_forward l = false ->
  aget (m_pending (run ws mux0 l)) (m_next (run ws mux0 l)) = None.
Check C04_own_response : forall ws l c f, N.of_nat (length l) + 2 < two64 ->
  In (c, OGot f) (m_out (run ws mux0 l)) -> aget (m_issued (run ws mux0 l)) c = Some (f_id f).
Check C04_at_most_one : forall ws l, N.of_nat (length l) + 2 < two64 ->
  NoDup (map fst (m_out (run ws mux0 l))).
Check C04_unknown_dropped : forall ws s f,
  m_matched s = None -> ws && negb (f_notify f =? 0) = false -> aget (m_pending s) (f_id f) = None ->
  mstep ws s (Recv f)
  = mkMux (m_next s) (m_pending s) (m_issued s) (m_wire s) (m_matched s) (m_out s) (m_sub s) (m_dropped s ++ [f]).
Check C04_duplicate_dropped : forall ws s f f',
  ws && negb (f_notify f =? 0) = false -> ws && negb (f_notify f' =? 0) = false -> f_id f' = f_id f ->
  let s1 := mstep ws s (Recv f) in
  let d := deliver s1 in
  mstep ws s1 (Recv f')
  = mkMux (m_next d) (m_pending d) (m_issued d) (m_wire d) (m_matched d) (m_out d) (m_sub d) (m_dropped d ++ [f']).
Check C04_ws_notify_to_subscriber_only : forall s f, f_notify f <> 0 ->
  let s' := mstep true s (Recv f) in
  m_pending s' = m_pending s /\ m_out s' = m_out (deliver s) /\ m_sub s' = m_sub s ++ [f] /\
  m_dropped s' = m_dropped (deliver s) /\ m_matched s' = None.
Check C04_ws_no_notify_to_caller : forall l c f, N.of_nat (length l) + 2 < two64 ->
  In (c, OGot f) (m_out (run true mux0 l)) -> f_notify f = 0.
Check C04_disabled_stutter : forall ws s st, enabled s st = false -> mstep ws s st = s.
Check C04_batch_aligned : forall res_of reqs sched i r,
  nth_error (b_res (brun res_of reqs sched)) i = Some (Some r) ->
  exists q, nth_error reqs i = Some q /\ r = res_of q.
Check C04_batch_complete : forall res_of reqs sched i q,
  b_queue (brun res_of reqs sched) = [] -> b_hold (brun res_of reqs sched) = [] ->
  nth_error reqs i = Some q ->
  nth_error (b_res (brun res_of reqs sched)) i = Some (Some (res_of q)).
Check C04_holds : forall cs, c04_wf cs = true -> ok_C04 cs (model_C04 cs) = true.

Print Assumptions C04_all_fresh_without_forward.
Print Assumptions C04_forward_duplicate_refused.
Print Assumptions C04_counter_ids_increase.
Print Assumptions C04_legacy_guard_same_without_reuse.
Print Assumptions C04_ids_fresh.
Print Assumptions C04_ids_distinct.
Print Assumptions C04_pending_inj.
Print Assumptions C04_register_never_collides.
Print Assumptions C04_own_response.
Print Assumptions C04_at_most_one.
Print Assumptions C04_unknown_dropped.
Print Assumptions C04_duplicate_dropped.
Print Assumptions C04_ws_notify_to_subscriber_only.
Print Assumptions C04_ws_no_notify_to_caller.
Print Assumptions C04_disabled_stutter.
Print Assumptions C04_batch_aligned.
Print Assumptions C04_batch_complete.
Print Assumptions C04_holds.

Check C04_holds_nosub : forall cs, c04_wf cs = true -> ok_C04_nosub cs (model_C04_nosub cs) = true.
Print Assumptions C04_holds_nosub.
