(** C15 — Connection lifecycle hooks fire once, in order, on every exit path.

    The model (Model/Lifecycle.v) is thin: [run] lays out the events of one
    connection for every hook configuration, exit cause and phase, and builds
    in assumption R5 — a constructed [DisconnectGuard] contributes exactly one
    drop at scope exit, whether the scope ends by return, [?], panic unwind or
    the future being dropped by an abort.  That Rust and tokio behave so is
    exercised only by the harness.  This file contains only statements (closed
    by [exact]), their pins, their assumptions and examples. *)
From RepeV Require Import Model.Lifecycle Proofs.PeersProofs Proofs.LifecycleProofs.

(** handshake ok: every registered disconnect hook runs exactly once (and no
    other), after every connect hook that ran — for every exit cause, phase,
    serving path and hook configuration, a panicking connect hook included *)
Theorem C15_disconnect_once : forall s j, s_hs s = true ->
  length (filter (is_disc_j j) (run s)) = (if (j <? ndisc s)%nat then 1%nat else 0%nat) /\
  (forall pre post, run s = pre ++ EDisconnect j :: post -> forall e, In e post -> is_connect e = false).
Proof. exact disconnect_once. Qed.

(** a failed handshake returns before the guard is built: no callback at all *)
Theorem C15_none_on_handshake_fail : forall s, s_hs s = false -> run s = [EHandshake false].
Proof. exact none_on_handshake_fail. Qed.

(** the token is cancelled once, after everything the connection did, before
    every disconnect hook *)
Theorem C15_cancel_before_disconnect_hooks : forall s, s_hs s = true ->
  exists pre post, run s = pre ++ ECancel :: post /\
    (forall e, In e pre -> guard_side e = false) /\
    (forall e, In e post -> is_cancel e = false /\ is_connect e = false) /\
    (forall j, (j < ndisc s)%nat -> In (EDisconnect j) post).
Proof. exact cancel_before_disconnect_hooks. Qed.

(** a parked off-reader handler observes the cancellation, before any
    disconnect hook has run *)
Theorem C15_parked_handler_sees_cancel : forall s, s_hs s = true ->
  s_phase s = POffReader -> panic_idx (script s) = None ->
  exists pre post, run s = pre ++ EOffSeesCancel :: post /\
    In EOffStart pre /\ (forall e, In e pre -> is_disc e = false).
Proof. exact parked_handler_sees_cancel. Qed.

(** one FIFO: the outbound sequence is the notifies queued by the connect
    hooks, in hook order, then everything else (responses, handler pushes) *)
Theorem C15_hook_notifies_before_responses : forall s, s_hs s = true ->
  exists rest, outq (run s) = hook_notifies s ++ rest /\
    (forall m, In m (hook_notifies s) -> is_hook_notify m = true) /\
    (forall m, In m rest -> is_hook_notify m = false).
Proof. exact hook_notifies_before_responses. Qed.

(** with a registry attached the peer and its aliases are present in every
    callback from the insert hook to the remove hook, absent in the others,
    and absent after the connection *)
Theorem C15_registry_window : forall s, c15_wf s = true -> s_hs s = true ->
  forallb (sample_ok s (length (hc_indices (o_trace (model_C15 s))))) (o_trace (model_C15 s)) = true /\
  o_after (model_C15 s) = (false, 0).
Proof. exact registry_window. Qed.

(** the registry view used for those samples answers exactly like the registry
    specification of C18 (get, get_by) after any sequence of this peer's
    insert / alias / remove events, from any registry state without the peer *)
Theorem C15_registry_view_sound : forall id tr st, spec_inv st -> memN id (s_present st) = false ->
  (forall k, sp_lookup st k <> Some id) ->
  memN id (s_present (reg_after id st tr)) = rv_present (rv_after rv0 tr) /\
  (forall k, sp_lookup (reg_after id st tr) k = Some id <-> In k (rv_keys (rv_after rv0 tr))).
Proof. exact registry_view_sound. Qed.

(** the executable oracle (also applied to the implementation's observations)
    accepts the model on every well-formed case *)
Theorem C15_holds : forall s, c15_wf s = true -> ok_C15 s (model_C15 s) = true.
Proof. exact ok_model_C15. Qed.

(** connections are independent: that a sibling connection under the same
    server / shutdown trigger ended earlier changes nothing for this one *)
Theorem C15_sibling_independent : forall s b,
  run (set_sibling b s) = run s /\ model_C15 (set_sibling b s) = model_C15 s /\
  model_mid (set_sibling b s) = model_mid s.
Proof. exact sibling_independent. Qed.

(** until its own exit cause is raised a connection has seen nothing of the
    guard's drop (no cancel, no disconnect hook, no registry remove) and no
    handler of it has observed a cancellation *)
Theorem C15_survivor_untouched : forall s, c15_stag_wf s = true ->
  (exists rest, run s = before_arrive (run s) ++ EArrive (s_cause s) :: rest) /\
  (forall e, In e (before_arrive (run s)) -> guard_side e = false /\ is_offsees e = false).
Proof. exact survivor_untouched. Qed.

(** the oracle for the observation of a survivor accepts the model *)
Theorem C15_mid_holds : forall s, c15_stag_wf s = true -> ok_mid s (model_mid s) = true.
Proof. exact ok_model_mid. Qed.

(** ** non-vacuity *)

(** a panicking connect hook after the registry insert and an alias, a parked
    handler never started, two disconnect hooks around the registry's remove *)
Definition c15_ex_panic : scenario :=
  mkScenario MServeConn true true [ANotify 2] true [ACount] [AAlias 7; APanic; ACount] 1 1
             CleanClose POffReader 1 0 false.

Example C15_ex_panic_run :
  run c15_ex_panic =
  [EHandshake true; EGuardBuilt; EConnect 0; EQueue (OHookNotify 0 0); EQueue (OHookNotify 0 1); ERegInsert;
   EConnect 1; EConnect 2; ERegAlias 7; EConnect 3; EExit (XHookPanic 3);
   ECancel; EDisconnect 0; ERegRemove; EDisconnect 1].
Proof. vm_compute. reflexivity. Qed.

Example C15_ex_panic_obs :
  c15_wf c15_ex_panic = true /\
  model_C15 c15_ex_panic =
  mkObs [HC 0 false; HC 1 true; HC 2 true; HC 3 true; HD 0 true 1; HD 1 false 0] (false, 0) [WN 0 0; WN 0 1] None /\
  ok_C15 c15_ex_panic (model_C15 c15_ex_panic) = true.
Proof. vm_compute. repeat split; reflexivity. Qed.

(** the connection future dropped by an abort while an off-reader handler is parked *)
Definition c15_ex_abort : scenario :=
  mkScenario MAdopt true false [] true [ANotify 1] [AAlias 9] 0 2 DrainAbort POffReader 1 0 false.

Example C15_ex_abort_run :
  run c15_ex_abort =
  [EHandshake true; EGuardBuilt; ERegInsert; EConnect 0; EQueue (OHookNotify 0 0); EReaderStart;
   ERequest 0; EQueue (OResponse 0); ERequest 1; EOffStart; EArrive DrainAbort; EOffSeesCancel;
   EExit (XCause DrainAbort); ECancel; ERegRemove; EDisconnect 0; EDisconnect 1].
Proof. vm_compute. reflexivity. Qed.

Example C15_ex_abort_obs :
  c15_wf c15_ex_abort = true /\
  model_C15 c15_ex_abort = mkObs [HC 0 true; HK; HD 0 false 0; HD 1 false 0] (false, 0) [WN 0 0; WR] (Some true).
Proof. vm_compute. split; reflexivity. Qed.

(** socket loss while a handler is parked: it sees the cancellation only from the guard *)
Example C15_ex_loss_run :
  run (mkScenario MListener true false [] false [] [] 1 0 SocketLoss POffReader 1 0 false) =
  [EHandshake true; EGuardBuilt; EReaderStart; ERequest 0; EQueue (OResponse 0); ERequest 1; EOffStart;
   EArrive SocketLoss; EExit (XCause SocketLoss); ECancel; EOffSeesCancel; EDisconnect 0].
Proof. vm_compute. reflexivity. Qed.

(** the oracle is not trivially true *)
Example C15_oracle_rejects :
  let s := c15_ex_abort in
  (* a disconnect hook twice *)
  ok_C15 s (mkObs [HC 0 true; HK; HD 0 false 0; HD 1 false 0; HD 1 false 0] (false, 0) [WN 0 0; WR] (Some true)) = false /\
  (* a disconnect hook never *)
  ok_C15 s (mkObs [HC 0 true; HK; HD 0 false 0] (false, 0) [WN 0 0; WR] (Some true)) = false /\
  (* a disconnect hook before the cancellation became observable *)
  ok_C15 s (mkObs [HC 0 true; HD 0 false 0; HK; HD 1 false 0] (false, 0) [WN 0 0; WR] (Some true)) = false /\
  (* the parked handler never saw the cancellation *)
  ok_C15 s (mkObs [HC 0 true; HD 0 false 0; HD 1 false 0] (false, 0) [WN 0 0; WR] (Some false)) = false /\
  (* the response overtook a connect-hook notify *)
  ok_C15 s (mkObs [HC 0 true; HK; HD 0 false 0; HD 1 false 0] (false, 0) [WR] (Some true)) = false /\
  (* the peer still registered afterwards / an alias still resolving *)
  ok_C15 s (mkObs [HC 0 true; HK; HD 0 false 0; HD 1 false 0] (true, 0) [WN 0 0; WR] (Some true)) = false /\
  ok_C15 s (mkObs [HC 0 true; HK; HD 0 false 0; HD 1 false 0] (false, 1) [WN 0 0; WR] (Some true)) = false /\
  (* the peer absent inside a connect hook registered after the registry *)
  ok_C15 s (mkObs [HC 0 false; HK; HD 0 false 0; HD 1 false 0] (false, 0) [WN 0 0; WR] (Some true)) = false /\
  (* any callback for a failed handshake *)
  ok_C15 (mkScenario MListener false false [] false [] [] 1 0 CleanClose PIdle 1 0 false)
         (mkObs [HD 0 false 0] (false, 0) [] None) = false /\
  ok_C15 (mkScenario MListener false false [] false [] [] 1 0 CleanClose PIdle 1 0 false)
         (mkObs [] (false, 0) [] None) = true.
Proof. vm_compute. repeat split; reflexivity. Qed.

(** the registry view against the C18 specification on a concrete history *)
Example C15_view_example :
  let tr := [ERegAlias 3; ERegInsert; ERegAlias 4; ERegAlias 5; ERegAlias 4] in
  rv_after rv0 tr = mkRv true [4; 5] /\
  sp_lookup (reg_after 1 (mkPspec [2] [(4, 2)]) tr) 4 = Some 1 /\
  sp_lookup (reg_after 1 (mkPspec [2] [(4, 2)]) tr) 3 = None /\
  rv_after rv0 (tr ++ [ERegRemove]) = mkRv false [] /\
  sp_lookup (reg_after 1 (mkPspec [2] [(4, 2)]) (tr ++ [ERegRemove])) 4 = None.
Proof. vm_compute. repeat split; reflexivity. Qed.

(** a survivor with a parked handler, observed before its own cause: present
    with its alias, nothing seen, still serving; the oracle rejects an early
    disconnect, an early absence, a spurious cancellation, a dead connection, a
    cancelled trigger and a broken new connection *)
Example C15_mid_example :
  let s := set_sibling true c15_ex_abort in
  c15_stag_wf s = true /\
  model_mid s = mkMobs 0 true 0 (Some false) true false true /\
  model_mid (mkScenario MServeConn true true [] true [AAlias 3] [AAlias 4] 1 1 EmbedderCancel PIdle 2 0 true)
    = mkMobs 0 true 2 None true false true /\
  ok_mid s (mkMobs 1 true 0 (Some false) true false true) = false /\
  ok_mid s (mkMobs 0 false 0 (Some false) true false true) = false /\
  ok_mid s (mkMobs 0 true 0 (Some true) true false true) = false /\
  ok_mid s (mkMobs 0 true 0 (Some false) false false true) = false /\
  ok_mid s (mkMobs 0 true 0 (Some false) true true true) = false /\
  ok_mid s (mkMobs 0 true 0 (Some false) true false false) = false.
Proof. vm_compute. repeat split; reflexivity. Qed.

Check C15_disconnect_once : forall s j, s_hs s = true ->
  length (filter (is_disc_j j) (run s)) = (if (j <? ndisc s)%nat then 1%nat else 0%nat) /\
  (forall pre post, run s = pre ++ EDisconnect j :: post -> forall e, In e post -> is_connect e = false).
Check C15_none_on_handshake_fail : forall s, s_hs s = false -> run s = [EHandshake false].
Check C15_cancel_before_disconnect_hooks : forall s, s_hs s = true ->
  exists pre post, run s = pre ++ ECancel :: post /\
    (forall e, In e pre -> guard_side e = false) /\
    (forall e, In e post -> is_cancel e = false /\ is_connect e = false) /\
    (forall j, (j < ndisc s)%nat -> In (EDisconnect j) post).
Check C15_parked_handler_sees_cancel : forall s, s_hs s = true ->
  s_phase s = POffReader -> panic_idx (script s) = None ->
  exists pre post, run s = pre ++ EOffSeesCancel :: post /\
    In EOffStart pre /\ (forall e, In e pre -> is_disc e = false).
Check C15_hook_notifies_before_responses : forall s, s_hs s = true ->
  exists rest, outq (run s) = hook_notifies s ++ rest /\
    (forall m, In m (hook_notifies s) -> is_hook_notify m = true) /\
    (forall m, In m rest -> is_hook_notify m = false).
Check C15_registry_window : forall s, c15_wf s = true -> s_hs s = true ->
  forallb (sample_ok s (length (hc_indices (o_trace (model_C15 s))))) (o_trace (model_C15 s)) = true /\
  o_after (model_C15 s) = (false, 0).
Check C15_registry_view_sound : forall id tr st, spec_inv st -> memN id (s_present st) = false ->
  (forall k, sp_lookup st k <> Some id) ->
  memN id (s_present (reg_after id st tr)) = rv_present (rv_after rv0 tr) /\
  (forall k, sp_lookup (reg_after id st tr) k = Some id <-> In k (rv_keys (rv_after rv0 tr))).
Check C15_holds : forall s, c15_wf s = true -> ok_C15 s (model_C15 s) = true.

Check C15_sibling_independent : forall s b,
  run (set_sibling b s) = run s /\ model_C15 (set_sibling b s) = model_C15 s /\
  model_mid (set_sibling b s) = model_mid s.
Check C15_survivor_untouched : forall s, c15_stag_wf s = true ->
  (exists rest, run s = before_arrive (run s) ++ EArrive (s_cause s) :: rest) /\
  (forall e, In e (before_arrive (run s)) -> guard_side e = false /\ is_offsees e = false).
Check C15_mid_holds : forall s, c15_stag_wf s = true -> ok_mid s (model_mid s) = true.

(** the predicates used above are the plain ones *)
Check (eq_refl : is_disc_j = fun j e => match e with EDisconnect j' => (j =? j')%nat | _ => false end).
Check (eq_refl : is_disc = fun e => match e with EDisconnect _ => true | _ => false end).
Check (eq_refl : is_connect = fun e => match e with EConnect _ => true | _ => false end).
Check (eq_refl : is_cancel = fun e => match e with ECancel => true | _ => false end).
Check (eq_refl : guard_side = fun e => is_disc e || is_cancel e || match e with ERegRemove => true | _ => false end).
Check (eq_refl : is_hook_notify = fun m => match m with OHookNotify _ _ => true | _ => false end).
Check (eq_refl : hook_notifies = fun s =>
  flat_map (fun c => match c with CHook i (ANotify k) => map (OHookNotify i) (nseq k) | _ => [] end) (upto_panic (script s))).
Check (eq_refl : spec_inv = fun s => NoDup (map fst (s_assign s))).

Print Assumptions C15_disconnect_once.
Print Assumptions C15_none_on_handshake_fail.
Print Assumptions C15_cancel_before_disconnect_hooks.
Print Assumptions C15_parked_handler_sees_cancel.
Print Assumptions C15_hook_notifies_before_responses.
Print Assumptions C15_registry_window.
Print Assumptions C15_registry_view_sound.
Print Assumptions C15_holds.
Print Assumptions C15_sibling_independent.
Print Assumptions C15_survivor_untouched.
Print Assumptions C15_mid_holds.
