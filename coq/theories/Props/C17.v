(** C17 — Outbound size guard: nothing above the configured peer frame limit is
    put on the wire; within the limit a message is sent unchanged; an oversized
    response is replaced by a small internal-error reply with the same id; an
    oversized notify (server) or request (client) is not sent and is reported.
    This file contains only statements (each derived in a line or two from the
    lemma of Proofs/ it is an instance of), their pins and their assumptions. *)
From RepeV Require Import Model.Limits Proofs.HeaderProofs Proofs.MessageProofs Proofs.LimitsProofs.

(** ** the decimal rendering used in the replacement text *)
Theorem C17_dec_at_most_20 : forall n, (length (dec n) <= 20)%nat.
Proof. exact dec_length_le. Qed.

Theorem C17_dec_nonempty : forall n, dec n <> [].
Proof. intros n H. pose proof (dec_length_pos n) as P. rewrite H in P. inversion P. Qed.

Theorem C17_dec_bytes : forall n, bytes_ok (dec n) = true.
Proof. exact dec_ok. Qed.

(** every replacement frame fits [replacement_bound] bytes, whatever the sizes
    it mentions: a limit of at least that many bytes can carry the error reply *)
Theorem C17_replacement_fits : forall size limit, replacement_len size limit <= replacement_bound.
Proof. exact replacement_len_le_bound. Qed.

Example C17_replacement_bound_value : replacement_bound = 202.
Proof. vm_compute. reflexivity. Qed.

(** ** the server-side writer ([frame_outbound]) *)
Theorem C17_within_limit_unchanged : forall lim m,
  check_outbound lim (HEADER_SIZE + lenN (m_query m) + lenN (m_body m)) = true ->
  frame_outbound lim m = (Some (to_vec m), false).
Proof. exact frame_outbound_within. Qed.

Theorem C17_no_limit_passthrough : forall m, frame_outbound None m = (Some (to_vec m), false).
Proof. intros m. apply frame_outbound_within. reflexivity. Qed.

Theorem C17_oversized_notify_dropped : forall l m,
  l < HEADER_SIZE + lenN (m_query m) + lenN (m_body m) -> h_notify (m_hdr m) <> 0 ->
  frame_outbound (Some l) m = (None, true).
Proof. exact frame_outbound_notify. Qed.

Theorem C17_oversized_response_replaced : forall l m,
  l < HEADER_SIZE + lenN (m_query m) + lenN (m_body m) -> h_notify (m_hdr m) = 0 ->
  h_id (m_hdr m) < two64 ->
  exists r, frame_outbound (Some l) m = (Some (to_vec r), true) /\ msg_ok r = true /\
    h_id (m_hdr r) = h_id (m_hdr m) /\ h_ec (m_hdr r) = 9 /\ m_query r = [] /\
    lenN (to_vec r) <= replacement_bound /\ from_slice_exact (to_vec r) = Ok r.
Proof. exact frame_outbound_replaced. Qed.

Theorem C17_outbound_never_exceeds_limit : forall l m bs rep,
  replacement_bound <= l -> frame_outbound (Some l) m = (Some bs, rep) -> lenN bs <= l.
Proof. exact frame_outbound_le_limit. Qed.

(** ** the client's pre-send check *)
Theorem C17_client_refuses_locally : forall l m,
  l < lenN (to_vec m) -> client_send (Some l) m = None.
Proof. exact client_send_refused. Qed.

Theorem C17_client_sends_within_limit : forall lim m,
  check_outbound lim (lenN (to_vec m)) = true -> client_send lim m = Some (to_vec m).
Proof. exact client_send_within. Qed.

(** ** the sizes-only model the driver runs computes the byte-level observation.
    The hypothesis [h_ec <> 9] cannot be dropped: a response that is itself the
    replacement that would be produced for it is "replaced" by identical bytes
    (see [C17_self_replacement_*] below). *)
Theorem C17_abs_agrees : forall c,
  c17_wf c = true -> h_notify (m_hdr (v_msg c)) <= 1 -> h_ec (m_hdr (v_msg c)) <> 9 ->
  model_C17 c = model_C17_abs (h_ec (m_hdr (v_msg c))) (abs_of c).
Proof.
  intros c Hwf _ Hec. exact (model_C17_abs_agrees_gen c Hwf (ec_not_self_replacement c Hwf Hec)).
Qed.

(** the same with the weakest side condition: the offered message is not
    byte-for-byte its own replacement *)
Theorem C17_abs_agrees_general : forall c,
  c17_wf c = true ->
  (forall l, v_limit c = Some l ->
     to_vec (replacement (h_id (m_hdr (v_msg c)))
               (HEADER_SIZE + lenN (m_query (v_msg c)) + lenN (m_body (v_msg c))) l)
     <> to_vec (v_msg c)) ->
  model_C17 c = model_C17_abs (h_ec (m_hdr (v_msg c))) (abs_of c).
Proof. exact model_C17_abs_agrees_gen. Qed.

(** ** the executable oracle (also applied to the implementation's
    observations) accepts the model *)
Theorem C17_holds : forall c,
  c17_wf c = true -> h_ec (m_hdr (v_msg c)) <> 9 -> ok_C17 c (model_C17 c) = true.
Proof. intros c Hwf Hec. exact (ok_model_C17_gen c Hwf (ec_not_self_replacement c Hwf Hec)). Qed.

Theorem C17_holds_general : forall c,
  c17_wf c = true ->
  (forall l, v_limit c = Some l ->
     to_vec (replacement (h_id (m_hdr (v_msg c)))
               (HEADER_SIZE + lenN (m_query (v_msg c)) + lenN (m_body (v_msg c))) l)
     <> to_vec (v_msg c)) ->
  ok_C17 c (model_C17 c) = true.
Proof. exact ok_model_C17_gen. Qed.

Theorem C17_holds_abs : forall ec a,
  (match a_limit a with Some l => l < two64 | None => True end) ->
  ok_C17_abs a (model_C17_abs ec a) = true.
Proof. intros ec a _. exact (ok_model_C17_abs ec a). Qed.

(** the two oracles are the same function of the case's sizes *)
Theorem C17_oracle_abs : forall c o, ok_C17_abs (abs_of c) o = ok_C17 c o.
Proof. exact ok_C17_abs_of. Qed.

(** ** why the side condition is there: the 168-byte replacement for
    (size 168, limit 100), offered under the limit 100, is replaced by itself;
    the oracle's "the frame differs from the offered message" conjunct then
    fails and the sizes-only model (which reports [same = false]) disagrees *)
Example C17_self_replacement_wf : c17_wf c17_self_replacement = true.
Proof. vm_compute. reflexivity. Qed.

Example C17_self_replacement_rejected :
  ok_C17 c17_self_replacement (model_C17 c17_self_replacement) = false.
Proof. vm_compute. reflexivity. Qed.

Example C17_self_replacement_abs_differs :
  c17_obs_eqb (model_C17 c17_self_replacement)
    (model_C17_abs (h_ec (m_hdr (v_msg c17_self_replacement))) (abs_of c17_self_replacement))
  = false.
Proof. vm_compute. reflexivity. Qed.

(** ** non-vacuity: a 350-byte message (2-byte query, 300-byte body, id 7)
    offered under a 250-byte limit on each kind of path, and under no limit *)
Definition c17_msg (notify : bool) : message :=
  build (mkBuilder 7 [47; 97] (repeat 65 300) 0 0 notify 0).

Example C17_nonvacuous_replaced :
  let c := mkC17 PInlineResponse (Some 250) (c17_msg false) in
  c17_wf c = true /\ h_ec (m_hdr (v_msg c)) <> 9 /\
  model_C17 c = mkC17Obs (SFrame 168 7 9 false) true true /\
  model_C17_abs 0 (abs_of c) = model_C17 c /\ ok_C17 c (model_C17 c) = true.
Proof. vm_compute. repeat split; try reflexivity; discriminate. Qed.

Example C17_nonvacuous_proxy_unreported :
  let c := mkC17 PProxyResponse (Some 250) (c17_msg false) in
  c17_wf c = true /\ model_C17 c = mkC17Obs (SFrame 168 7 9 false) false true /\
  ok_C17 c (model_C17 c) = true.
Proof. vm_compute. repeat split; reflexivity. Qed.

Example C17_nonvacuous_notify_dropped :
  let c := mkC17 PBroadcastNotify (Some 250) (c17_msg true) in
  c17_wf c = true /\ model_C17 c = mkC17Obs SNothing true true /\
  model_C17_abs 0 (abs_of c) = model_C17 c /\ ok_C17 c (model_C17 c) = true.
Proof. vm_compute. repeat split; reflexivity. Qed.

Example C17_nonvacuous_client_refused :
  let c := mkC17 PClientRequest (Some 250) (c17_msg false) in
  c17_wf c = true /\ model_C17 c = mkC17Obs SNothing true true /\
  model_C17_abs 0 (abs_of c) = model_C17 c /\ ok_C17 c (model_C17 c) = true.
Proof. vm_compute. repeat split; reflexivity. Qed.

Example C17_nonvacuous_at_limit_unchanged :
  let c := mkC17 POffReaderResponse (Some 350) (c17_msg false) in
  c17_wf c = true /\ model_C17 c = mkC17Obs (SFrame 350 7 0 true) false true /\
  model_C17_abs 0 (abs_of c) = model_C17 c /\ ok_C17 c (model_C17 c) = true.
Proof. vm_compute. repeat split; reflexivity. Qed.

Example C17_nonvacuous_no_limit :
  let c := mkC17 PClientNotify None (c17_msg true) in
  c17_wf c = true /\ model_C17 c = mkC17Obs (SFrame 350 7 0 true) false true /\
  ok_C17 c (model_C17 c) = true.
Proof. vm_compute. repeat split; reflexivity. Qed.

(** the oracle is not trivially true: it rejects an oversized frame put on the
    wire unchanged, and a silently dropped oversized response *)
Example C17_oracle_rejects_oversized :
  let c := mkC17 PInlineResponse (Some 250) (c17_msg false) in
  ok_C17 c (mkC17Obs (SFrame 350 7 0 true) false true) = false /\
  ok_C17 c (mkC17Obs SNothing true true) = false.
Proof. vm_compute. split; reflexivity. Qed.

Check C17_dec_at_most_20 : forall n, (length (dec n) <= 20)%nat.
Check C17_dec_nonempty : forall n, dec n <> [].
Check C17_dec_bytes : forall n, bytes_ok (dec n) = true.
Check C17_replacement_fits : forall size limit, replacement_len size limit <= replacement_bound.
Check C17_within_limit_unchanged : forall lim m,
  check_outbound lim (HEADER_SIZE + lenN (m_query m) + lenN (m_body m)) = true ->
  frame_outbound lim m = (Some (to_vec m), false).
Check C17_no_limit_passthrough : forall m, frame_outbound None m = (Some (to_vec m), false).
Check C17_oversized_notify_dropped : forall l m,
  l < HEADER_SIZE + lenN (m_query m) + lenN (m_body m) -> h_notify (m_hdr m) <> 0 ->
  frame_outbound (Some l) m = (None, true).
Check C17_oversized_response_replaced : forall l m,
  l < HEADER_SIZE + lenN (m_query m) + lenN (m_body m) -> h_notify (m_hdr m) = 0 ->
  h_id (m_hdr m) < two64 ->
  exists r, frame_outbound (Some l) m = (Some (to_vec r), true) /\ msg_ok r = true /\
    h_id (m_hdr r) = h_id (m_hdr m) /\ h_ec (m_hdr r) = 9 /\ m_query r = [] /\
    lenN (to_vec r) <= replacement_bound /\ from_slice_exact (to_vec r) = Ok r.
Check C17_outbound_never_exceeds_limit : forall l m bs rep,
  replacement_bound <= l -> frame_outbound (Some l) m = (Some bs, rep) -> lenN bs <= l.
Check C17_client_refuses_locally : forall l m,
  l < lenN (to_vec m) -> client_send (Some l) m = None.
Check C17_client_sends_within_limit : forall lim m,
  check_outbound lim (lenN (to_vec m)) = true -> client_send lim m = Some (to_vec m).
Check C17_abs_agrees : forall c,
  c17_wf c = true -> h_notify (m_hdr (v_msg c)) <= 1 -> h_ec (m_hdr (v_msg c)) <> 9 ->
  model_C17 c = model_C17_abs (h_ec (m_hdr (v_msg c))) (abs_of c).
Check C17_abs_agrees_general : forall c,
  c17_wf c = true ->
  (forall l, v_limit c = Some l ->
     to_vec (replacement (h_id (m_hdr (v_msg c)))
               (HEADER_SIZE + lenN (m_query (v_msg c)) + lenN (m_body (v_msg c))) l)
     <> to_vec (v_msg c)) ->
  model_C17 c = model_C17_abs (h_ec (m_hdr (v_msg c))) (abs_of c).
Check C17_holds : forall c,
  c17_wf c = true -> h_ec (m_hdr (v_msg c)) <> 9 -> ok_C17 c (model_C17 c) = true.
Check C17_holds_general : forall c,
  c17_wf c = true ->
  (forall l, v_limit c = Some l ->
     to_vec (replacement (h_id (m_hdr (v_msg c)))
               (HEADER_SIZE + lenN (m_query (v_msg c)) + lenN (m_body (v_msg c))) l)
     <> to_vec (v_msg c)) ->
  ok_C17 c (model_C17 c) = true.
Check C17_holds_abs : forall ec a,
  (match a_limit a with Some l => l < two64 | None => True end) ->
  ok_C17_abs a (model_C17_abs ec a) = true.
Check C17_oracle_abs : forall c o, ok_C17_abs (abs_of c) o = ok_C17 c o.

Print Assumptions C17_dec_at_most_20.
Print Assumptions C17_dec_nonempty.
Print Assumptions C17_dec_bytes.
Print Assumptions C17_replacement_fits.
Print Assumptions C17_within_limit_unchanged.
Print Assumptions C17_no_limit_passthrough.
Print Assumptions C17_oversized_notify_dropped.
Print Assumptions C17_oversized_response_replaced.
Print Assumptions C17_outbound_never_exceeds_limit.
Print Assumptions C17_client_refuses_locally.
Print Assumptions C17_client_sends_within_limit.
Print Assumptions C17_abs_agrees.
Print Assumptions C17_abs_agrees_general.
Print Assumptions C17_holds.
Print Assumptions C17_holds_general.
Print Assumptions C17_holds_abs.
Print Assumptions C17_oracle_abs.
Print Assumptions C17_self_replacement_wf.
Print Assumptions C17_self_replacement_rejected.
Print Assumptions C17_self_replacement_abs_differs.

(** ** tie to the source text: the body of WebSocketLimits::check_outbound,
    re-translated into Gallina by bin/rs2v on every run (Gen/LimitsGen.v), returns
    [Ok(())] exactly when the model's [check_outbound] allows the message and
    [Err(MessageTooLarge)] otherwise; its second rendering (Gen/OutboundGen.v) keeps the payload
    of that error (the size asked about and the limit); and the body of frame_outbound
    (src/websocket_server.rs), re-translated on every run (Gen/OutboundGen.v), puts on the wire
    what the model's [frame_outbound] says -- the message unchanged, nothing for a refused notify,
    the internal-error replacement with the same id for a refused response -- and calls the
    error-hook oracle exactly once per refused message and never otherwise ([reports] is the list
    of those calls; [fmt] is the oracle for the [format!] text, [cap_of] the one for the capacity
    of a body vector).  The replacement is built by create_error_message, itself re-translated
    (Gen/ErrMsgGen.v: the builder chain of src/message.rs) and equal to the model's [build] of the
    default builder with the error code and the text as a UTF-8 body.  [None] (not translated,
    reported by rs2v) degrades to [True]. *)
From RepeV Require Import Base.GenLimitsPrelude Gen.LimitsGen Proofs.LimitsGenAgree.
From RepeV Require Import Base.GenOutboundPrelude Gen.ErrMsgGen Gen.OutboundGen Proofs.ErrMsgGenAgree Proofs.OutboundGenAgree.

Theorem C17_source_translation :
  match gen_check_outbound with
  | Some f => forall l size, f l size = if check_outbound (l_peer l) size then Ok tt else Err EOther
  | None => True
  end /\
  match gen_check_outbound_r with
  | Some f => forall l size,
      f l size = Ok (match l_peer l with
                     | Some lim => if check_outbound (Some lim) size then ROk tt else RErr (E_MessageTooLarge size lim)
                     | None => ROk tt
                     end, l)
  | None => True
  end /\
  match gen_frame_outbound with
  | Some f => forall fmt cap_of reports m l,
      (forall s li, fmt [s; li] = replacement_text s li) ->
      h_version (m_hdr m) < 256 -> h_notify (m_hdr m) < 256 -> frame_len m < two64 ->
      f fmt cap_of reports m l =
      Ok (fst (frame_outbound (l_peer l) m), reports ++ reports_of (l_peer l) m)
  | None => True
  end.
Proof. exact (conj check_outbound_agrees (conj check_outbound_r_agrees frame_outbound_agrees)). Qed.

Theorem C17_source_translation_messages :
  match gen_msg_builder with Some f => f = Ok (mkBuilder 0 [] [] 0 0 false 0) | None => True end /\
  match gen_builder_error_code with
  | Some f => forall b ec, f b ec = Ok (mkBuilder (b_id b) (b_query b) (b_body b) (b_qfmt b) (b_bfmt b) (b_notify b) ec)
  | None => True
  end /\
  match gen_builder_body_bytes with
  | Some f => forall b x, f b x = Ok (mkBuilder (b_id b) (b_query b) x (b_qfmt b) (b_bfmt b) (b_notify b) (b_ec b))
  | None => True
  end /\
  match gen_builder_body_format with
  | Some f => forall b x, f b x = Ok (mkBuilder (b_id b) (b_query b) (b_body b) (b_qfmt b) x (b_notify b) (b_ec b))
  | None => True
  end /\
  match gen_create_error_message with
  | Some f => forall code text, HEADER_SIZE + lenN text < two64 -> f code text = Ok (error_message code text)
  | None => True
  end /\
  match gen_create_error_response_like with
  | Some f => forall r code text, HEADER_SIZE + lenN (m_query r) + lenN text < two64 ->
      f r code text = Ok (error_response_like r code text)
  | None => True
  end.
Proof.
  exact (conj msg_builder_agrees (conj builder_error_code_agrees (conj builder_body_bytes_agrees (conj builder_body_format_agrees
    (conj create_error_message_agrees create_error_response_like_agrees))))).
Qed.

Theorem C17_source_translation_reports : forall lim m,
  length (reports_of lim m) = if snd (frame_outbound lim m) then 1%nat else 0%nat.
Proof. exact c17_reports_of_model. Qed.

Check C17_source_translation :
  match gen_check_outbound with
  | Some f => forall l size, f l size = if check_outbound (l_peer l) size then Ok tt else Err EOther
  | None => True
  end /\
  match gen_check_outbound_r with
  | Some f => forall l size,
      f l size = Ok (match l_peer l with
                     | Some lim => if check_outbound (Some lim) size then ROk tt else RErr (E_MessageTooLarge size lim)
                     | None => ROk tt
                     end, l)
  | None => True
  end /\
  match gen_frame_outbound with
  | Some f => forall fmt cap_of reports m l,
      (forall s li, fmt [s; li] = replacement_text s li) ->
      h_version (m_hdr m) < 256 -> h_notify (m_hdr m) < 256 -> frame_len m < two64 ->
      f fmt cap_of reports m l =
      Ok (fst (frame_outbound (l_peer l) m), reports ++ reports_of (l_peer l) m)
  | None => True
  end.
Check C17_source_translation_messages :
  match gen_msg_builder with Some f => f = Ok (mkBuilder 0 [] [] 0 0 false 0) | None => True end /\
  match gen_builder_error_code with
  | Some f => forall b ec, f b ec = Ok (mkBuilder (b_id b) (b_query b) (b_body b) (b_qfmt b) (b_bfmt b) (b_notify b) ec)
  | None => True
  end /\
  match gen_builder_body_bytes with
  | Some f => forall b x, f b x = Ok (mkBuilder (b_id b) (b_query b) x (b_qfmt b) (b_bfmt b) (b_notify b) (b_ec b))
  | None => True
  end /\
  match gen_builder_body_format with
  | Some f => forall b x, f b x = Ok (mkBuilder (b_id b) (b_query b) (b_body b) (b_qfmt b) x (b_notify b) (b_ec b))
  | None => True
  end /\
  match gen_create_error_message with
  | Some f => forall code text, HEADER_SIZE + lenN text < two64 -> f code text = Ok (error_message code text)
  | None => True
  end /\
  match gen_create_error_response_like with
  | Some f => forall r code text, HEADER_SIZE + lenN (m_query r) + lenN text < two64 ->
      f r code text = Ok (error_response_like r code text)
  | None => True
  end.
Check C17_source_translation_reports : forall lim m,
  length (reports_of lim m) = if snd (frame_outbound lim m) then 1%nat else 0%nat.

(** the definitions used above are the plain ones *)
Check (eq_refl : frame_len = fun m => HEADER_SIZE + lenN (m_query m) + lenN (m_body m)).
Check (eq_refl : reports_of = fun lim m =>
  match lim with
  | Some l => if l <? frame_len m then [R_OutboundTooLarge (frame_len m) l] else []
  | None => []
  end).
Check (eq_refl : error_message = fun code text => build (mkBuilder 0 [] text 0 BF_UTF8 false code)).
Check (eq_refl : error_response_like = fun r code text =>
  let e := error_message code text in
  let h := set_h_qlen (set_h_id (m_hdr e) (h_id (m_hdr r))) (lenN (m_query r)) in
  mkMessage (set_h_length h (HEADER_SIZE + h_qlen h + h_blen h)) (m_query r) (m_body e)).
Check (eq_refl : (ERRC_InternalError, BF_UTF8) = (9, 3)).

Print Assumptions C17_source_translation.
Print Assumptions C17_source_translation_messages.
Print Assumptions C17_source_translation_reports.
