(** C12 — A parked producer is always woken by the event it waits for.
    The system of Model/Condvar.v: one waiter (wait_for_credit(len) or
    wait_for_reconnect) and any number of signalling threads over the single
    mutex and condition variable of TransferControl; an event list is one
    interleaving (signaller method bodies, the waiter's lock-check-return-or-
    park step, spurious wake-ups, clock ticks).  Every theorem quantifies over
    ALL event lists: no bound on threads, operations or schedule length.
    This file contains only statements (each derived in a line or two from the
    lemma of Proofs/ it is an instance of), their pins and their assumptions. *)
From RepeV Require Import Model.CondvarSplit.
From RepeV Require Import Model.Condvar Proofs.CondvarProofs.

(** every method that can turn the awaited condition from false to true calls
    notify_all (record_sent, push_replay, set_peer, the queries, a stale or
    foreign ack, a rejected resume, a second cancel cannot make it true) *)
Theorem C12_ready_needs_notify : forall k s o,
  ready k s = false -> ready k (fst (step s o)) = true -> notifies s o = true.
Proof. exact ready_needs_notify. Qed.

(** under every interleaving, a waiter in the wait set has a false condition:
    it never sleeps on while its condition holds *)
Theorem C12_no_lost_wakeup : forall w c k d es,
  let y := sys_run (sys_init w c k d) es in
  y_w y = Parked -> ready (y_kind y) (y_tc y) = false.
Proof. exact no_lost_wakeup. Qed.

(** the three things the waiter's step can do *)
Theorem C12_waiter_step_spec : forall y, y_w y = Runnable ->
  let k := y_kind y in
  let s := y_tc y in
  let y' := sys_step y EWaiter in
  (ready k s = true /\ y_w y' = Done (snd (waiter_return k s)) /\
   y_tc y' = fst (waiter_return k s) /\ snd (waiter_return k s) <> WTimeout)
  \/ (ready k s = false /\ y_deadline y <= y_now y /\ y_w y' = Done WTimeout /\ y_tc y' = s)
  \/ (ready k s = false /\ y_now y < y_deadline y /\ y_w y' = Parked /\ y_tc y' = s).
Proof. exact waiter_step. Qed.

(** under every interleaving, a returned value [r] was produced at one moment
    (after a prefix [es1] of the schedule) at which either the condition held
    and [r] is the value for the state at that moment (never Timeout), or the
    condition was false, the clock had reached the deadline and [r] is Timeout *)
Theorem C12_returns_right_value : forall w c k d es r,
  y_w (sys_run (sys_init w c k d) es) = Done r ->
  exists es1 es2, es = es1 ++ EWaiter :: es2 /\
    let y := sys_run (sys_init w c k d) es1 in
    y_w y = Runnable /\
    ((ready k (y_tc y) = true /\ r = snd (waiter_return k (y_tc y)) /\ r <> WTimeout) \/
     (ready k (y_tc y) = false /\ r = WTimeout /\ d <= y_now y)).
Proof. exact returns_right_value. Qed.

(** Timeout is returned only with a false condition, at or after the deadline *)
Theorem C12_timeout_not_early : forall y,
  y_w y = Runnable -> y_w (sys_step y EWaiter) = Done WTimeout ->
  ready (y_kind y) (y_tc y) = false /\ y_deadline y <= y_now y.
Proof. exact timeout_not_early. Qed.

(** not never: when the deadline is due the clock wakes the parked waiter, and
    a runnable waiter with a false condition past its deadline returns Timeout
    (progress as enabledness, not fairness) *)
Theorem C12_timeout_enabled : forall y,
  y_w y = Parked -> y_deadline y <= y_now y + 1 -> y_w (sys_step y ETick) = Runnable.
Proof. exact timeout_wakes. Qed.

Theorem C12_timeout_enabled_return : forall y,
  y_w y = Runnable -> ready (y_kind y) (y_tc y) = false -> y_deadline y <= y_now y ->
  y_w (sys_step y EWaiter) = Done WTimeout.
Proof. exact timeout_returns. Qed.

Theorem C12_timeout_parked_then_returns : forall y,
  y_w y = Parked -> ready (y_kind y) (y_tc y) = false -> y_deadline y <= y_now y + 1 ->
  y_w (sys_step (sys_step y ETick) EWaiter) = Done WTimeout.
Proof. exact timeout_parked_then_returns. Qed.

(** a parked waiter whose condition a signaller makes true is woken by that
    signaller and returns the value for the new state at its next step *)
Theorem C12_woken_then_returns : forall y o,
  y_w y = Parked -> ready (y_kind y) (y_tc y) = false ->
  ready (y_kind y) (fst (step (y_tc y) o)) = true ->
  exists r, y_w (sys_step (sys_step y (ESignal o)) EWaiter) = Done r /\ r <> WTimeout /\
            r = snd (waiter_return (y_kind y) (fst (step (y_tc y) o))).
Proof. exact woken_then_returns. Qed.

(** the same in every reachable state, without the extra hypothesis *)
Theorem C12_woken_then_returns_reachable : forall w c k d es o,
  let y := sys_run (sys_init w c k d) es in
  y_w y = Parked -> ready k (fst (step (y_tc y) o)) = true ->
  exists r, y_w (sys_step (sys_step y (ESignal o)) EWaiter) = Done r /\ r <> WTimeout.
Proof. exact woken_then_returns_reachable. Qed.

(** a returned waiter keeps its value *)
Theorem C12_done_stable : forall es y r, y_w y = Done r -> y_w (sys_run y es) = Done r.
Proof.
  intros es y r. apply (fold_left_invariant sys_step (fun y' => y_w y' = Done r)).
  intros y' e _. apply done_step.
Qed.

(** the executable oracle (also applied to the implementation's observations)
    accepts the model on every case, without side condition *)
Theorem C12_holds : forall w c k pre ops, ok_C12 w c k pre ops (model_C12 w c k pre ops) = true.
Proof. exact ok_model_C12. Qed.

(** the oracle rejects a lost wake-up: "still parked" after an operation that
    made the condition true *)
Theorem C12_oracle_rejects_lost_wakeup : forall k s o ops obs,
  ready k (fst (step s o)) = true -> check12 k s false (o :: ops) (StillParked :: obs) = false.
Proof. exact check12_rejects_lost_wakeup. Qed.

(** ** non-vacuity *)

(** window 2, two bytes in flight, a credit wait for 1 byte parks; a stale ack,
    a foreign-file ack, a send and an insufficient ack (which does notify: the
    waiter re-checks and parks again) leave it parked; the cancel returns it *)
Example C12_nonvacuous_credit :
  model_C12 2 8 (WCredit 1) [Sent 2] [Ack 0 0; Ack 1 2; Sent 3; Ack 0 1; Cancel 7; Ack 0 3]
  = (StillParked, [StillParked; StillParked; StillParked; StillParked;
                   Returned (WCancelled 7); Returned (WCancelled 7)]).
Proof. vm_compute. reflexivity. Qed.

Example C12_nonvacuous_credit_ack :
  model_C12 2 8 (WCredit 1) [Sent 2] [Ack 0 1; Advance 1]
  = (StillParked, [Returned WGranted; Returned WGranted]) /\
  model_C12 2 8 (WCredit 1) [Sent 2] [Advance 1]
  = (StillParked, [Returned WGranted]) /\
  model_C12 2 8 (WCredit 1) [Sent 2; Push 0 1 false [5]; Push 1 1 false [6]] [Resume 9 0 2; Resume 9 0 1]
  = (StillParked, [Returned WGranted; Returned WGranted]) /\
  model_C12 2 8 (WCredit 1) [Sent 1] [Sent 2] = (Returned WGranted, [Returned WGranted]).
Proof. vm_compute. repeat split; reflexivity. Qed.

(** reconnect wait: a wrong-file and an out-of-window resume are rejected and
    do not wake it; the accepted one returns its offset *)
Example C12_nonvacuous_reconnect :
  model_C12 2 8 WReconnect [Push 0 2 false [1; 2]]
            [Resume 9 1 0; Resume 9 0 1; Ack 0 1; SetPeer 3; Resume 9 0 2; Cancel 1]
  = (StillParked, [StillParked; StillParked; StillParked; StillParked;
                   Returned (WResumeReady 2); Returned (WResumeReady 2)]).
Proof. vm_compute. reflexivity. Qed.

(** the oracle rejects: a lost wake-up (parked after the sufficient ack), an
    early return (returned after a stale ack), and a wrong value *)
Example C12_oracle_rejects :
  ok_C12 2 8 (WCredit 1) [Sent 2] [Ack 0 1] (StillParked, [Returned WGranted]) = true /\
  ok_C12 2 8 (WCredit 1) [Sent 2] [Ack 0 1] (StillParked, [StillParked]) = false /\
  ok_C12 2 8 (WCredit 1) [Sent 2] [Ack 0 0] (StillParked, [Returned WGranted]) = false /\
  ok_C12 2 8 (WCredit 1) [Sent 2] [Cancel 3] (StillParked, [Returned WGranted]) = false /\
  ok_C12 2 8 (WCredit 1) [Sent 2] [Cancel 3] (StillParked, [Returned (WCancelled 4)]) = false /\
  ok_C12 2 8 (WCredit 1) [Sent 2] [Ack 0 1] (Returned WGranted, [Returned WGranted]) = false /\
  ok_C12 2 8 WReconnect [] [Advance 1] (StillParked, [Returned WTimeout]) = false.
Proof. vm_compute. repeat split; reflexivity. Qed.

(** a schedule with a spurious wake-up in which the condition never becomes
    true: the waiter returns Timeout exactly when the clock reaches the
    deadline 2, not at time 1 *)
Example C12_nonvacuous_timeout :
  let y0 := sys_run (sys_init 2 8 (WCredit 1) 2) [ESignal (Sent 2); EWaiter] in
  y_w y0 = Parked /\
  y_w (sys_run y0 [ETick; ESpurious; EWaiter]) = Parked /\
  y_w (sys_run y0 [ETick; ESpurious; EWaiter; ETick]) = Runnable /\
  y_w (sys_run y0 [ETick; ESpurious; EWaiter; ETick; EWaiter]) = Done WTimeout.
Proof. vm_compute. repeat split; reflexivity. Qed.

(** the hypotheses of [C12_woken_then_returns] are satisfiable, and a racing
    signaller between the wake-up and the waiter's step changes the value, not
    the fact of returning *)
Example C12_nonvacuous_woken :
  let y0 := sys_run (sys_init 2 8 (WCredit 1) 9) [ESignal (Sent 2); EWaiter] in
  y_w y0 = Parked /\ ready (y_kind y0) (y_tc y0) = false /\
  ready (y_kind y0) (fst (step (y_tc y0) (Ack 0 1))) = true /\
  y_w (sys_run y0 [ESignal (Ack 0 1); EWaiter]) = Done WGranted /\
  y_w (sys_run y0 [ESignal (Ack 0 1); ESignal (Cancel 5); EWaiter]) = Done (WCancelled 5) /\
  y_w (sys_run y0 [ESignal (Ack 0 1); ESignal (Sent 3); EWaiter]) = Parked.
Proof. vm_compute. repeat split; reflexivity. Qed.

Check C12_ready_needs_notify : forall k s o,
  ready k s = false -> ready k (fst (step s o)) = true -> notifies s o = true.
Check C12_no_lost_wakeup : forall w c k d es,
  let y := sys_run (sys_init w c k d) es in
  y_w y = Parked -> ready (y_kind y) (y_tc y) = false.
Check C12_waiter_step_spec : forall y, y_w y = Runnable ->
  let k := y_kind y in
  let s := y_tc y in
  let y' := sys_step y EWaiter in
  (ready k s = true /\ y_w y' = Done (snd (waiter_return k s)) /\
   y_tc y' = fst (waiter_return k s) /\ snd (waiter_return k s) <> WTimeout)
  \/ (ready k s = false /\ y_deadline y <= y_now y /\ y_w y' = Done WTimeout /\ y_tc y' = s)
  \/ (ready k s = false /\ y_now y < y_deadline y /\ y_w y' = Parked /\ y_tc y' = s).
Check C12_returns_right_value : forall w c k d es r,
  y_w (sys_run (sys_init w c k d) es) = Done r ->
  exists es1 es2, es = es1 ++ EWaiter :: es2 /\
    let y := sys_run (sys_init w c k d) es1 in
    y_w y = Runnable /\
    ((ready k (y_tc y) = true /\ r = snd (waiter_return k (y_tc y)) /\ r <> WTimeout) \/
     (ready k (y_tc y) = false /\ r = WTimeout /\ d <= y_now y)).
Check C12_timeout_not_early : forall y,
  y_w y = Runnable -> y_w (sys_step y EWaiter) = Done WTimeout ->
  ready (y_kind y) (y_tc y) = false /\ y_deadline y <= y_now y.
Check C12_timeout_enabled : forall y,
  y_w y = Parked -> y_deadline y <= y_now y + 1 -> y_w (sys_step y ETick) = Runnable.
Check C12_timeout_enabled_return : forall y,
  y_w y = Runnable -> ready (y_kind y) (y_tc y) = false -> y_deadline y <= y_now y ->
  y_w (sys_step y EWaiter) = Done WTimeout.
Check C12_timeout_parked_then_returns : forall y,
  y_w y = Parked -> ready (y_kind y) (y_tc y) = false -> y_deadline y <= y_now y + 1 ->
  y_w (sys_step (sys_step y ETick) EWaiter) = Done WTimeout.
Check C12_woken_then_returns : forall y o,
  y_w y = Parked -> ready (y_kind y) (y_tc y) = false ->
  ready (y_kind y) (fst (step (y_tc y) o)) = true ->
  exists r, y_w (sys_step (sys_step y (ESignal o)) EWaiter) = Done r /\ r <> WTimeout /\
            r = snd (waiter_return (y_kind y) (fst (step (y_tc y) o))).
Check C12_woken_then_returns_reachable : forall w c k d es o,
  let y := sys_run (sys_init w c k d) es in
  y_w y = Parked -> ready k (fst (step (y_tc y) o)) = true ->
  exists r, y_w (sys_step (sys_step y (ESignal o)) EWaiter) = Done r /\ r <> WTimeout.
Check C12_done_stable : forall es y r, y_w y = Done r -> y_w (sys_run y es) = Done r.
Check C12_holds : forall w c k pre ops, ok_C12 w c k pre ops (model_C12 w c k pre ops) = true.
Check C12_oracle_rejects_lost_wakeup : forall k s o ops obs,
  ready k (fst (step s o)) = true -> check12 k s false (o :: ops) (StillParked :: obs) = false.

Print Assumptions C12_ready_needs_notify.
Print Assumptions C12_no_lost_wakeup.
Print Assumptions C12_waiter_step_spec.
Print Assumptions C12_returns_right_value.
Print Assumptions C12_timeout_not_early.
Print Assumptions C12_timeout_enabled.
Print Assumptions C12_timeout_enabled_return.
Print Assumptions C12_timeout_parked_then_returns.
Print Assumptions C12_woken_then_returns.
Print Assumptions C12_woken_then_returns_reachable.
Print Assumptions C12_done_stable.
Print Assumptions C12_holds.
Print Assumptions C12_oracle_rejects_lost_wakeup.

(** the atomicity of check-and-park is what the theorems above rest on: if the predicate is
    evaluated under one hold of the mutex and the park happens under another
    (Model/CondvarSplit.v), there is a schedule after which the waiter is parked although its
    condition holds and the notifying operation has already run *)
Theorem C12_split_check_loses_wakeup :
  let z := sys2_run (sys2_init 4 8 (WCredit 2)) lost_wakeup_schedule in
  z_w z = Parked2 /\ ready (z_kind z) (z_tc z) = true /\
  notifies (z_tc (sys2_run (sys2_init 4 8 (WCredit 2)) [ESignal2 (Sent 10); EWaiter2])) (Ack 0 10) = true.
Proof. vm_compute. repeat split. Qed.
Check C12_split_check_loses_wakeup :
  let z := sys2_run (sys2_init 4 8 (WCredit 2)) lost_wakeup_schedule in
  z_w z = Parked2 /\ ready (z_kind z) (z_tc z) = true /\
  notifies (z_tc (sys2_run (sys2_init 4 8 (WCredit 2)) [ESignal2 (Sent 10); EWaiter2])) (Ack 0 10) = true.
Print Assumptions C12_split_check_loses_wakeup.

(** ** tie to the source text (see Props/C11.v): the [notified] flag of the
    re-translated body of every signalling method is the model's [notifies], and
    one iteration of the re-translated loop of each waiting method returns
    exactly when [ready] holds or the deadline has passed, with the value of
    [waiter_return], and otherwise parks with the state unchanged. *)
From RepeV Require Import Base.GenPrelude Gen.StreamGen Proofs.StreamGenAgree.

Theorem C12_source_translation :
  (match gen_record_sent with Some f => forall s n, snd (f s n) = notifies s (Sent n) | None => True end /\
   match gen_record_ack with Some f => forall s fi n, snd (f s fi n) = notifies s (Ack fi n) | None => True end /\
   match gen_cancel with Some f => forall s r, snd (f s r) = notifies s (Cancel r) | None => True end /\
   match gen_advance_to_file with Some f => forall s fi, snd (f s fi) = notifies s (Advance fi) | None => True end /\
   match gen_request_resume with Some f => forall s p fi n, snd (f s p fi n) = notifies s (Resume p fi n) | None => True end /\
   match gen_push_replay with Some f => forall s off len lst body, snd (f s off len lst body) = notifies s (Push off len lst body) | None => True end /\
   match gen_set_peer with Some f => forall s p, snd (f s p) = notifies s (SetPeer p) | None => True end /\
   match gen_replay_chunks_from with Some f => forall s n, snd (f s n) = notifies s (Replay n) | None => True end) /\
  match gen_wait_for_credit with
  | Some f => forall s len expired, t_window s < two64 ->
      let '(s', i, nt) := f s len expired in
      s' = s /\ nt = false /\ returned i = ready (WCredit len) s || expired /\
      (ready (WCredit len) s = true -> iter_map wres_of_credit i = Some (snd (waiter_return (WCredit len) s))) /\
      (ready (WCredit len) s = false -> i = if expired then Ret (RErr CE_Timeout) else Park)
  | None => True
  end /\
  match gen_wait_for_reconnect with
  | Some f => forall s expired,
      let '(s', i, nt) := f s expired in
      nt = false /\ returned i = ready WReconnect s || expired /\
      (ready WReconnect s = true ->
       exists v, i = Ret v /\ (s', wres_of_reconnect v) = waiter_return WReconnect s) /\
      (ready WReconnect s = false -> s' = s /\ i = if expired then Ret RO_Timeout else Park)
  | None => True
  end /\
  match gen_wait_for_reconnect with
  | Some f => forall s,
      let '(s', i, nt) := f s true in
      (s', iter_map out_of_reconnect i, nt) = (fst (step s TryReconnect), Some (snd (step s TryReconnect)), false)
  | None => True
  end.
Proof.
  exact (conj notified_agrees (conj wait_for_credit_iteration (conj wait_for_reconnect_iteration wait_for_reconnect_expired))).
Qed.

Check C12_source_translation :
  (match gen_record_sent with Some f => forall s n, snd (f s n) = notifies s (Sent n) | None => True end /\
   match gen_record_ack with Some f => forall s fi n, snd (f s fi n) = notifies s (Ack fi n) | None => True end /\
   match gen_cancel with Some f => forall s r, snd (f s r) = notifies s (Cancel r) | None => True end /\
   match gen_advance_to_file with Some f => forall s fi, snd (f s fi) = notifies s (Advance fi) | None => True end /\
   match gen_request_resume with Some f => forall s p fi n, snd (f s p fi n) = notifies s (Resume p fi n) | None => True end /\
   match gen_push_replay with Some f => forall s off len lst body, snd (f s off len lst body) = notifies s (Push off len lst body) | None => True end /\
   match gen_set_peer with Some f => forall s p, snd (f s p) = notifies s (SetPeer p) | None => True end /\
   match gen_replay_chunks_from with Some f => forall s n, snd (f s n) = notifies s (Replay n) | None => True end) /\
  match gen_wait_for_credit with
  | Some f => forall s len expired, t_window s < two64 ->
      let '(s', i, nt) := f s len expired in
      s' = s /\ nt = false /\ returned i = ready (WCredit len) s || expired /\
      (ready (WCredit len) s = true -> iter_map wres_of_credit i = Some (snd (waiter_return (WCredit len) s))) /\
      (ready (WCredit len) s = false -> i = if expired then Ret (RErr CE_Timeout) else Park)
  | None => True
  end /\
  match gen_wait_for_reconnect with
  | Some f => forall s expired,
      let '(s', i, nt) := f s expired in
      nt = false /\ returned i = ready WReconnect s || expired /\
      (ready WReconnect s = true ->
       exists v, i = Ret v /\ (s', wres_of_reconnect v) = waiter_return WReconnect s) /\
      (ready WReconnect s = false -> s' = s /\ i = if expired then Ret RO_Timeout else Park)
  | None => True
  end /\
  match gen_wait_for_reconnect with
  | Some f => forall s,
      let '(s', i, nt) := f s true in
      (s', iter_map out_of_reconnect i, nt) = (fst (step s TryReconnect), Some (snd (step s TryReconnect)), false)
  | None => True
  end.

Print Assumptions C12_source_translation.
