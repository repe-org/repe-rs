(** C14 — The registry behaves as a JSON tree addressed by RFC 6901 pointers.
    Model: [Model/Json.v], [Model/Registry.v] (src/registry.rs, the mount of
    src/server.rs, src/json_pointer.rs).  This file contains only statements
    (each derived in a line or two from the lemma of Proofs/ it is an instance
    of), their pins, their assumptions and examples. *)
From RepeV Require Import Model.Json Model.Registry Proofs.JsonProofs Proofs.PointerProofs
  Proofs.RegistryProofs Proofs.RegistryLaws Proofs.RegistryConc.

(** ** the code answers as "a plain JSON document plus a set of callables" *)

(** for every sequence of registrations, merges, reads, writes, calls and
    mounted requests: the same answers (by value or error class), the same
    document after every operation, the same calls *)
Theorem C14_refines : forall c, model_C14 c = spec_C14 c.
Proof. exact model_refines_spec. Qed.

Theorem C14_holds : forall c, ok_C14 c (model_C14 c) = true.
Proof. intros c. apply ok_C14_iff, model_refines_spec. Qed.

(** the oracle accepts exactly the specification's trace *)
Theorem C14_oracle_exact : forall c tr, ok_C14 c tr = true <-> tr = spec_C14 c.
Proof. exact ok_C14_iff. Qed.

(** ** the document laws, on the model of [dispatch] *)

(** a successful write (answer Ok, no call made) to a non-root pointer is
    returned by the next read of that pointer *)
Theorem C14_read_your_write : forall st p v st' j,
  is_root_ptr p = false ->
  dispatch st p (Some v) = (st', ROk j, []) ->
  dispatch st' p None = (st', ROk v, []).
Proof. exact dispatch_read_your_write. Qed.

(** ... and changes the answer at no pointer whose resolved path diverges from
    the written one (value or error class unchanged) *)
Theorem C14_write_frame : forall st p v st' j q pt qt,
  dispatch st p (Some v) = (st', ROk j, []) ->
  parse_pointer p = Ok pt -> parse_pointer q = Ok qt ->
  diverge (r_root st) pt qt ->
  obs_out (snd (fst (dispatch st' q None))) = obs_out (snd (fst (dispatch st q None))).
Proof.
  intros st p v st' j q pt qt H Pp Pq D. f_equal.
  exact (dispatch_write_frame_exact st p v st' j q pt qt H Pp Pq D).
Qed.

(** the same two laws on the document itself *)
Theorem C14_doc_read_your_write : forall path d v d',
  path <> [] -> sp_put d path v = Some d' -> sp_get d' path = Some v.
Proof. exact sp_get_put_same. Qed.

Theorem C14_doc_write_frame : forall p d q v d',
  sp_put d p v = Some d' -> diverge d p q -> sp_get d' q = sp_get d q.
Proof. exact sp_get_put_frame. Qed.

(** a root write ("" or "/") in any reachable state merges the keys of an
    object body and refuses anything else with the invalid-body class *)
Theorem C14_root_write_merges : forall prefix ops p v,
  let st := fold_left (fun s o => fst (fst (rstep prefix s o))) ops rstate0 in
  is_root_ptr p = true ->
  dispatch st p (Some v) =
    match v with
    | JObj o => (mkR (JObj (omerge (obj_of (r_root st)) o)) (r_funs st), ROk (write_ok [SLASH]), [])
    | _ => (st, RErr ERootNotObject, [])
    end.
Proof.
  intros prefix ops p v st. apply dispatch_root_write.
  apply (reachable_no_root_fun prefix ops rstate0). reflexivity.
Qed.

(** merging: a key of the body gets the body's (last) value, every other key stays *)
Theorem C14_merge_keys : forall o m k,
  oget (omerge m o) k = match oget (rev o) k with Some v => Some v | None => oget m k end.
Proof. exact oget_omerge. Qed.

(** a request with an empty body never mutates and never calls, directly or through a mount *)
Theorem C14_read_never_mutates : forall st p,
  fst (fst (dispatch st p None)) = st /\ snd (dispatch st p None) = [].
Proof. exact dispatch_read_pure. Qed.

Theorem C14_mounted_read_never_mutates : forall pre st path b,
  decode_body b = Ok None ->
  fst (fst (route pre st path b)) = st /\ snd (route pre st path b) = [].
Proof. exact route_read_pure. Qed.

(** a callable is invoked exactly once, with the supplied body, state
    untouched, when the body is non-empty and the escape-normalised pointer is
    registered; otherwise nothing is invoked *)
Theorem C14_call_exactly_once_iff : forall st p body,
  match body, callable_at st p with
  | Some arg, Some fid => dispatch st p body = (st, fun_out fid arg, [(fid, arg)])
  | _, _ => snd (dispatch st p body) = []
  end.
Proof. exact dispatch_calls. Qed.

(** registering makes callable exactly the pointers that decode to the same tokens *)
Theorem C14_callable_exactly_at_normalised_pointer : forall st path fid st' segs,
  register_function st path fid = (st', RUnit) -> parse_registration_path path = Ok segs ->
  forall p segs', parse_pointer p = Ok segs' ->
  callable_at st' p = if path_eqb segs segs' then Some fid else callable_at st p.
Proof. exact register_function_callable. Qed.

(** ** pointer tokens *)
Theorem C14_escape_unescape : forall t, unescape_token (escape_token t) = Some t.
Proof. exact escape_unescape. Qed.

Theorem C14_unescape_escape : forall e t,
  contains SLASH e = false -> unescape_token e = Some t -> escape_token t = e.
Proof. exact unescape_escape. Qed.

(** the one-pass unescape of the code is RFC 6901 decoding: defined when every
    '~' is followed by '0' or '1', replacing "~1" by "/" and then "~0" by "~" *)
Theorem C14_unescape_is_rfc6901 : forall t, unescape_token t = sp_untoken t.
Proof. exact unescape_token_rfc. Qed.

(** the borrowed fast path = parse and re-escape, error cases included *)
Theorem C14_canonical_key_agrees : forall p,
  canonical_key p = match parse_pointer p with Ok segs => Ok (canonical_pointer segs) | Err e => Err e end.
Proof. exact canonical_key_agrees. Qed.

Theorem C14_parse_canonical : forall segs, segs <> [[]] -> parse_pointer (canonical_pointer segs) = Ok segs.
Proof. exact parse_canonical. Qed.

Theorem C14_parse_never_single_empty : forall p segs, parse_pointer p = Ok segs -> segs <> [[]].
Proof. exact parse_pointer_not_single_empty. Qed.

(** ** malformed pointers: rejected, not-found class, nothing touched *)
Theorem C14_malformed_is_not_found_class : forall st p,
  malformed p ->
  (forall body, dispatch st p body = (st, RErr EInvalidPointer, [])) /\
  read_value st p = RErr EInvalidPointer /\
  err_code EInvalidPointer = METHOD_NOT_FOUND.
Proof. exact malformed_rejected. Qed.

Theorem C14_malformed_iff_undecodable : forall p, sp_decode p = None <-> malformed p.
Proof. exact sp_decode_none_iff. Qed.

Theorem C14_lookup_errors_not_found_class : forall st p st' e lg,
  dispatch st p None = (st', RErr e, lg) -> err_code e = METHOD_NOT_FOUND.
Proof. exact dispatch_read_error_class. Qed.

(** ** mounting under a prefix only strips that prefix *)
Theorem C14_mount_strips_only_prefix : forall pre st path b,
  route (Some pre) st path b =
  match sp_mount_rest (normalize_prefix pre) path with
  | None => (st, RNoRoute, [])
  | Some rest => match decode_body b with
                 | Err e => (st, RErr e, [])
                 | Ok body => dispatch st rest body
                 end
  end.
Proof. exact route_mount. Qed.

Theorem C14_mount_rest_is_suffix : forall np path rest,
  sp_mount_rest np path = Some rest -> path = np ++ rest.
Proof. exact sp_mount_rest_app. Qed.

Theorem C14_mount_serves_below : forall np rest,
  np <> [] -> rest = [] \/ starts_with SLASH rest = true -> sp_mount_rest np (np ++ rest) = Some rest.
Proof. exact sp_mount_rest_below. Qed.

Theorem C14_mount_serves_only_below : forall np path,
  np <> [] -> (forall rest, path = np ++ rest -> rest <> [] /\ starts_with SLASH rest = false) ->
  sp_mount_rest np path = None.
Proof. exact sp_mount_rest_not_below. Qed.

(** ** the public pointer functions (src/json_pointer.rs) agree with the
    registry on every well-formed pointer except "/" *)
Theorem C14_public_eval_agrees : forall st p path,
  sp_decode p = Some path -> is_root_ptr p = false ->
  obs_out (read_value st p) = match jp_eval (r_root st) p with Some v => OOk v | None => OErr METHOD_NOT_FOUND end.
Proof. exact jp_eval_agrees. Qed.

(** the RFC 6901 oracle applied to the implementation's [parse_json_pointer] /
    [eval_json_pointer] observations accepts the model of those functions, and
    whatever it accepts on an RFC pointer is the RFC tokenisation and lookup *)
Theorem C14_public_pointer_ok : forall d p, ok_jp d p (jp_parse p) (jp_eval d p) = true.
Proof. exact jp_ok. Qed.

Theorem C14_public_pointer_pins : forall d p toks ev path,
  rfc_decode p = Some path -> ok_jp d p toks ev = true -> toks = path /\ ev = sp_get d path.
Proof. exact jp_ok_pins. Qed.

Example C14_public_pointer_slash :
  rfc_decode [SLASH] = Some [[]] /\ ok_jp JNull [SLASH] [] (Some JNull) = false /\ rfc_decode [97] = None.
Proof. vm_compute. repeat split. Qed.

(** ** concurrent requests are serialised: whatever the interleaving of the
    lock sections, the completed requests with their answers and calls, in
    completion order, are a sequential execution ending in the same state, and
    that order extends every thread's program order *)
Theorem C14_requests_linearizable : forall st ths sched st' ths' evs,
  fresh_requests ths ->
  crun st ths sched = (st', ths', evs) ->
  seq_run st (map ev_op evs) = (st', map ev_out evs) /\
  (forall k t, nth_error ths k = Some t ->
     exists t', nth_error ths' k = Some t' /\
                ct_todo t = map ev_op (filter (fun e => Nat.eqb (ev_tid e) k) evs) ++ ct_todo t').
Proof.
  intros st ths sched st' ths' evs Fr. apply crun_sequential, fresh_tinv, Fr.
Qed.

(** ** examples (non-vacuity) *)
Definition b_a : str := [97].          (* "a" *)
Definition b_b : str := [98].
Definition b_k : str := [107].
Definition p_a : str := [47; 97].                  (* "/a" *)
Definition p_ab : str := [47; 97; 47; 98].         (* "/a/b" *)
Definition p_a1 : str := [47; 97; 47; 49].         (* "/a/1" *)
Definition p_a01 : str := [47; 97; 47; 48; 49].    (* "/a/01" *)
Definition p_a2 : str := [47; 97; 47; 50].         (* "/a/2" *)
Definition p_ak : str := [47; 97; 47; 107].        (* "/a/k" *)
Definition p_esc : str := [47; 97; 126; 49; 98; 47; 109; 126; 48; 110].   (* "/a~1b/m~0n" *)

Definition c14_ops : list rop :=
  [RegValue p_a (JObj [(b_b, JNum 1)]);               (* /a = {"b":1} *)
   Dispatch p_ab (Some (JNum 2));                     (* write *)
   Dispatch p_ab None;                                (* read back *)
   RegFun p_ak 0;                                     (* callable at /a/k *)
   Dispatch p_ak (Some (JStr b_k));                   (* call *)
   Dispatch p_ak None;                                (* metadata, no call *)
   Dispatch [] (Some (JObj [(b_k, JBool true)]));     (* root merge *)
   Dispatch [47; 126] (Some JNull);                   (* malformed "/~" *)
   Route [47; 109; 47; 97; 47; 98] MNone;             (* through mount "/m": /m/a/b *)
   Route [47; 109; 120] MNone].                       (* "/mx": not below the prefix *)

Example C14_nonvacuous_trace :
  map o_out (model_C14 (mkCase (Some [47; 109]) c14_ops))
  = [OUnit; OOk (write_ok p_ab); OOk (JNum 2); OUnit; OOk (JArr [JNum 0; JStr b_k]);
     OOk (fn_meta p_ak); OOk (write_ok [SLASH]); OErr METHOD_NOT_FOUND; OOk (JNum 2); ONoRoute] /\
  map o_log (model_C14 (mkCase (Some [47; 109]) c14_ops))
  = [[]; []; []; []; [(0, JStr b_k)]; []; []; []; []; []] /\
  o_root (last (model_C14 (mkCase (Some [47; 109]) c14_ops)) (mkO OUnit JNull []))
  = JObj [(b_a, JObj [(b_b, JNum 2)]); (b_k, JBool true)].
Proof. vm_compute. repeat split; reflexivity. Qed.

(** the oracle rejects a trace in which the read after the write returns the old value *)
Example C14_oracle_rejects :
  let c := mkCase None [RegValue p_a (JObj [(b_b, JNum 1)]); Dispatch p_ab (Some (JNum 2)); Dispatch p_ab None] in
  let tr := model_C14 c in
  ok_C14 c tr = true /\
  ok_C14 c (firstn 2 tr ++ [mkO (OOk (JNum 1)) (JObj [(b_a, JObj [(b_b, JNum 2)])]) []]) = false /\
  ok_C14 c (firstn 2 tr ++ [mkO (OOk (JNum 2)) (JObj [(b_a, JObj [(b_b, JNum 2)])]) [(0, JNull)]]) = false.
Proof. vm_compute. repeat split; reflexivity. Qed.

(** "1" and "01" select the same array slot (no divergence, the write is seen
    through the alias); "1" and "2" diverge *)
Example C14_index_alias :
  let d := JObj [(b_a, JArr [JNum 10; JNum 11; JNum 12])] in
  let st := fst (fst (rstep None rstate0 (RegValue p_a (JArr [JNum 10; JNum 11; JNum 12])))) in
  let st' := fst (fst (dispatch st p_a1 (Some (JNum 99)))) in
  r_root st = d /\
  snd (fst (dispatch st' p_a01 None)) = ROk (JNum 99) /\
  snd (fst (dispatch st' p_a2 None)) = ROk (JNum 12) /\
  diverge d [b_a; [49]] [b_a; [50]] /\
  ~ diverge d [b_a; [49]] [b_a; [48; 49]].
Proof.
  split; [vm_compute; reflexivity|]. split; [vm_compute; reflexivity|]. split; [vm_compute; reflexivity|]. split.
  - cbn [diverge]. right. split; [reflexivity|]. eexists. split; [vm_compute; reflexivity|].
    cbn [diverge]. exists 1, 2. split; [vm_compute; reflexivity|]. split; [vm_compute; reflexivity|]. left. discriminate.
  - cbn [diverge]. intros [H|[_ [c [E H]]]]; [now apply H|].
    vm_compute in E. injection E as <-. cbn [diverge] in H.
    destruct H as [i [j [Pi [Pj [H|[_ [c' [_ H]]]]]]]]; [|destruct c'; exact H].
    vm_compute in Pi. vm_compute in Pj. injection Pi as <-. injection Pj as <-. now apply H.
Qed.

(** escaped pointers: "/a~1b/m~0n" has the tokens "a/b" and "m~n" and is its own canonical key *)
Example C14_escaped_pointer :
  parse_pointer p_esc = Ok [[97; 47; 98]; [109; 126; 110]] /\ canonical_key p_esc = Ok p_esc /\
  jp_parse p_esc = [[97; 47; 98]; [109; 126; 110]] /\ malformed [47; 97; 126; 50] /\ malformed [97].
Proof.
  repeat split; try (vm_compute; reflexivity); try discriminate.
  - right. exists [97; 126; 50]. split; [left; reflexivity|reflexivity].
  - left. reflexivity.
Qed.

(** two threads (a write then a read; a write) interleaved section by section: the events in
    completion order are the sequential execution *)
Example C14_linearizable_nonvacuous :
  let st := fst (fst (rstep None rstate0 (RegValue p_a (JObj [(b_b, JNum 1)])))) in
  let ths := [mkT None [Dispatch p_ab (Some (JNum 2)); Dispatch p_ab None];
              mkT None [Dispatch p_ab (Some (JNum 3))]] in
  fresh_requests ths /\
  map (fun e => (ev_tid e, snd (fst e))) (snd (crun st ths [0; 1; 1; 0; 0]%nat))
  = [(1%nat, ROk (write_ok p_ab)); (0%nat, ROk (write_ok p_ab)); (0%nat, ROk (JNum 2))].
Proof. split; [repeat constructor|vm_compute; reflexivity]. Qed.

(** observation outside the statement (which speaks of concurrent requests):
    a [register_function] landing between a write request's callable lookup and
    its write section, followed by an overwrite of the parent, gives the request
    an answer (path not found, no call) that no sequential order gives *)
Definition race_w : rop := Dispatch p_ak (Some (JNum 1)).
Definition race_r1 : rop := RegFun p_ak 0.
Definition race_r2 : rop := RegValue p_a (JNum 5).

Example C14_registration_race_example :
  let st := fst (fst (rstep None rstate0 (RegValue p_a (JObj [])))) in
  In (0%nat, race_w, RErr EPathNotFound, [])
     (snd (crun st [mkT None [race_w]; mkT None [race_r1; race_r2]] [0; 1; 1; 0]%nat)) /\
  nth 0 (snd (seq_run st [race_w; race_r1; race_r2])) (RUnit, []) = (ROk (write_ok p_ak), []) /\
  nth 1 (snd (seq_run st [race_r1; race_w; race_r2])) (RUnit, []) = (ROk (JArr [JNum 0; JNum 1]), [(0, JNum 1)]) /\
  nth 2 (snd (seq_run st [race_r1; race_r2; race_w])) (RUnit, []) = (ROk (JArr [JNum 0; JNum 1]), [(0, JNum 1)]).
Proof. vm_compute. repeat split; try reflexivity. right. right. left. reflexivity. Qed.

(** ** pins *)
Check C14_refines : forall c, model_C14 c = spec_C14 c.
Check C14_holds : forall c, ok_C14 c (model_C14 c) = true.
Check C14_oracle_exact : forall c tr, ok_C14 c tr = true <-> tr = spec_C14 c.
Check C14_read_your_write : forall st p v st' j,
  is_root_ptr p = false ->
  dispatch st p (Some v) = (st', ROk j, []) ->
  dispatch st' p None = (st', ROk v, []).
Check C14_write_frame : forall st p v st' j q pt qt,
  dispatch st p (Some v) = (st', ROk j, []) ->
  parse_pointer p = Ok pt -> parse_pointer q = Ok qt ->
  diverge (r_root st) pt qt ->
  obs_out (snd (fst (dispatch st' q None))) = obs_out (snd (fst (dispatch st q None))).
Check C14_doc_read_your_write : forall path d v d',
  path <> [] -> sp_put d path v = Some d' -> sp_get d' path = Some v.
Check C14_doc_write_frame : forall p d q v d',
  sp_put d p v = Some d' -> diverge d p q -> sp_get d' q = sp_get d q.
Check C14_root_write_merges : forall prefix ops p v,
  let st := fold_left (fun s o => fst (fst (rstep prefix s o))) ops rstate0 in
  is_root_ptr p = true ->
  dispatch st p (Some v) =
    match v with
    | JObj o => (mkR (JObj (omerge (obj_of (r_root st)) o)) (r_funs st), ROk (write_ok [SLASH]), [])
    | _ => (st, RErr ERootNotObject, [])
    end.
Check C14_merge_keys : forall o m k,
  oget (omerge m o) k = match oget (rev o) k with Some v => Some v | None => oget m k end.
Check C14_read_never_mutates : forall st p,
  fst (fst (dispatch st p None)) = st /\ snd (dispatch st p None) = [].
Check C14_mounted_read_never_mutates : forall pre st path b,
  decode_body b = Ok None ->
  fst (fst (route pre st path b)) = st /\ snd (route pre st path b) = [].
Check C14_call_exactly_once_iff : forall st p body,
  match body, callable_at st p with
  | Some arg, Some fid => dispatch st p body = (st, fun_out fid arg, [(fid, arg)])
  | _, _ => snd (dispatch st p body) = []
  end.
Check C14_callable_exactly_at_normalised_pointer : forall st path fid st' segs,
  register_function st path fid = (st', RUnit) -> parse_registration_path path = Ok segs ->
  forall p segs', parse_pointer p = Ok segs' ->
  callable_at st' p = if path_eqb segs segs' then Some fid else callable_at st p.
Check C14_escape_unescape : forall t, unescape_token (escape_token t) = Some t.
Check C14_unescape_escape : forall e t,
  contains SLASH e = false -> unescape_token e = Some t -> escape_token t = e.
Check C14_unescape_is_rfc6901 : forall t, unescape_token t = sp_untoken t.
Check C14_canonical_key_agrees : forall p,
  canonical_key p = match parse_pointer p with Ok segs => Ok (canonical_pointer segs) | Err e => Err e end.
Check C14_parse_canonical : forall segs, segs <> [[]] -> parse_pointer (canonical_pointer segs) = Ok segs.
Check C14_parse_never_single_empty : forall p segs, parse_pointer p = Ok segs -> segs <> [[]].
Check C14_malformed_is_not_found_class : forall st p,
  malformed p ->
  (forall body, dispatch st p body = (st, RErr EInvalidPointer, [])) /\
  read_value st p = RErr EInvalidPointer /\
  err_code EInvalidPointer = METHOD_NOT_FOUND.
Check C14_malformed_iff_undecodable : forall p, sp_decode p = None <-> malformed p.
Check C14_lookup_errors_not_found_class : forall st p st' e lg,
  dispatch st p None = (st', RErr e, lg) -> err_code e = METHOD_NOT_FOUND.
Check C14_mount_strips_only_prefix : forall pre st path b,
  route (Some pre) st path b =
  match sp_mount_rest (normalize_prefix pre) path with
  | None => (st, RNoRoute, [])
  | Some rest => match decode_body b with
                 | Err e => (st, RErr e, [])
                 | Ok body => dispatch st rest body
                 end
  end.
Check C14_mount_rest_is_suffix : forall np path rest,
  sp_mount_rest np path = Some rest -> path = np ++ rest.
Check C14_mount_serves_below : forall np rest,
  np <> [] -> rest = [] \/ starts_with SLASH rest = true -> sp_mount_rest np (np ++ rest) = Some rest.
Check C14_mount_serves_only_below : forall np path,
  np <> [] -> (forall rest, path = np ++ rest -> rest <> [] /\ starts_with SLASH rest = false) ->
  sp_mount_rest np path = None.
Check C14_public_eval_agrees : forall st p path,
  sp_decode p = Some path -> is_root_ptr p = false ->
  obs_out (read_value st p) = match jp_eval (r_root st) p with Some v => OOk v | None => OErr METHOD_NOT_FOUND end.
Check C14_requests_linearizable : forall st ths sched st' ths' evs,
  fresh_requests ths ->
  crun st ths sched = (st', ths', evs) ->
  seq_run st (map ev_op evs) = (st', map ev_out evs) /\
  (forall k t, nth_error ths k = Some t ->
     exists t', nth_error ths' k = Some t' /\
                ct_todo t = map ev_op (filter (fun e => Nat.eqb (ev_tid e) k) evs) ++ ct_todo t').

(** the auxiliary notions used above are the plain ones *)
Check (eq_refl : malformed = fun p =>
  p <> [] /\ (starts_with SLASH p = false \/ exists t, In t (split_on SLASH (tl p)) /\ esc_wf t = false)).
Check (eq_refl : callable_at = fun st p =>
  match parse_pointer p with Ok segs => fget (r_funs st) (canonical_pointer segs) | Err _ => None end).
Check (eq_refl : fresh_requests = fun ths =>
  Forall (fun t => ct_dec t = None /\ forallb is_request (ct_todo t) = true) ths).
Check (eq_refl : diverge = fix diverge (d : json) (p q : list str) : Prop :=
  match p, q with
  | t :: p', u :: q' =>
      match d with
      | JObj m => t <> u \/ (t = u /\ exists c, oget m t = Some c /\ diverge c p' q')
      | JArr a => exists i j, parse_usize t = Some i /\ parse_usize u = Some j /\
                              (i <> j \/ (i = j /\ exists c, nthN a i = Some c /\ diverge c p' q'))
      | _ => False
      end
  | _, _ => False
  end).

Print Assumptions C14_refines.
Print Assumptions C14_holds.
Print Assumptions C14_oracle_exact.
Print Assumptions C14_read_your_write.
Print Assumptions C14_write_frame.
Print Assumptions C14_doc_read_your_write.
Print Assumptions C14_doc_write_frame.
Print Assumptions C14_root_write_merges.
Print Assumptions C14_merge_keys.
Print Assumptions C14_read_never_mutates.
Print Assumptions C14_mounted_read_never_mutates.
Print Assumptions C14_call_exactly_once_iff.
Print Assumptions C14_callable_exactly_at_normalised_pointer.
Print Assumptions C14_escape_unescape.
Print Assumptions C14_unescape_escape.
Print Assumptions C14_unescape_is_rfc6901.
Print Assumptions C14_canonical_key_agrees.
Print Assumptions C14_parse_canonical.
Print Assumptions C14_parse_never_single_empty.
Print Assumptions C14_malformed_is_not_found_class.
Print Assumptions C14_malformed_iff_undecodable.
Print Assumptions C14_lookup_errors_not_found_class.
Print Assumptions C14_mount_strips_only_prefix.
Print Assumptions C14_mount_rest_is_suffix.
Print Assumptions C14_mount_serves_below.
Print Assumptions C14_mount_serves_only_below.
Print Assumptions C14_public_eval_agrees.
Print Assumptions C14_requests_linearizable.

Check C14_public_pointer_ok : forall d p, ok_jp d p (jp_parse p) (jp_eval d p) = true.
Check C14_public_pointer_pins : forall d p toks ev path,
  rfc_decode p = Some path -> ok_jp d p toks ev = true -> toks = path /\ ev = sp_get d path.
Print Assumptions C14_public_pointer_ok.
Print Assumptions C14_public_pointer_pins.

(** ** the pointer functions of the model are the ones re-translated from the Rust source on this run
    (bin/rs2v, string mode: Gen/PointerGen.v, Proofs/PointerGenAgree.v).  Each rendering returns [Ok]
    of the model's value on every byte string: no panic, same result.  [utf8_cont_ok] is a necessary
    condition of UTF-8 validity (true of every [&str]); it is what [&pointer[1..]] needs in order not
    to hit Rust's char-boundary panic.  [register_spec]: the callable is stored under
    [canonical_pointer] of the parsed registration path (not under the raw path). *)
From RepeV Require Import Base.GenStrPrelude Gen.PointerGen Proofs.PointerGenAgree.

Theorem C14_source_translation :
  agrees1 gen_jp_parse (fun p => Ok (Registry.jp_parse p)) /\
  agrees2 gen_jp_evaluate (fun d p => Ok (Registry.jp_eval d p)) /\
  agrees1 gen_unescape_token (fun t => Ok (opt_res (Registry.unescape_token t))) /\
  agrees1 gen_escape_token (fun t => Ok (Registry.escape_token t)) /\
  agrees1 gen_canonical_pointer (fun segs => Ok (Registry.canonical_pointer segs)) /\
  match gen_parse_pointer with
  | Some f => forall p, utf8_cont_ok p = true -> f p = Ok (gen_res (Registry.parse_pointer p))
  | None => True
  end /\
  match gen_canonical_key with
  | Some f => forall p, utf8_cont_ok p = true -> f p = Ok (gen_res (Registry.canonical_key p))
  | None => True
  end /\
  match gen_parse_registration_path with
  | Some f => forall p, utf8_cont_ok p = true -> f p = Ok (gen_res (Registry.parse_registration_path p))
  | None => True
  end /\
  match gen_register_function_key with
  | Some f => forall ens p, utf8_cont_ok p = true -> f ens p = Ok (register_spec ens p)
  | None => True
  end /\
  agrees2 gen_registry_matches (fun pre path => Ok (Registry.mount_matches pre path)) /\
  agrees2 gen_pointer_for (fun pre path => Ok (Registry.pointer_for pre path)) /\
  agrees1 gen_registry_prefix (fun prefix => Ok (Registry.normalize_prefix prefix)).
Proof.
  exact (conj jp_parse_agrees (conj jp_evaluate_agrees (conj unescape_token_agrees (conj escape_token_agrees
        (conj canonical_pointer_agrees (conj parse_pointer_agrees (conj canonical_key_agrees
        (conj parse_registration_path_agrees (conj register_function_key_agrees (conj registry_matches_agrees
        (conj pointer_for_agrees registry_prefix_agrees_c14))))))))))).
Qed.

Theorem C14_source_translation_errors :
  (forall p e, Registry.parse_pointer p = Registry.Err e -> e = Registry.EInvalidPointer) /\
  (forall p e, Registry.canonical_key p = Registry.Err e -> e = Registry.EInvalidPointer) /\
  (forall p e, Registry.parse_registration_path p = Registry.Err e -> e = Registry.EInvalidPointer).
Proof. exact (conj parse_pointer_err (conj canonical_key_err parse_registration_path_err)). Qed.

Check C14_source_translation :
  agrees1 gen_jp_parse (fun p => Ok (Registry.jp_parse p)) /\
  agrees2 gen_jp_evaluate (fun d p => Ok (Registry.jp_eval d p)) /\
  agrees1 gen_unescape_token (fun t => Ok (opt_res (Registry.unescape_token t))) /\
  agrees1 gen_escape_token (fun t => Ok (Registry.escape_token t)) /\
  agrees1 gen_canonical_pointer (fun segs => Ok (Registry.canonical_pointer segs)) /\
  match gen_parse_pointer with
  | Some f => forall p, utf8_cont_ok p = true -> f p = Ok (gen_res (Registry.parse_pointer p))
  | None => True
  end /\
  match gen_canonical_key with
  | Some f => forall p, utf8_cont_ok p = true -> f p = Ok (gen_res (Registry.canonical_key p))
  | None => True
  end /\
  match gen_parse_registration_path with
  | Some f => forall p, utf8_cont_ok p = true -> f p = Ok (gen_res (Registry.parse_registration_path p))
  | None => True
  end /\
  match gen_register_function_key with
  | Some f => forall ens p, utf8_cont_ok p = true -> f ens p = Ok (register_spec ens p)
  | None => True
  end /\
  agrees2 gen_registry_matches (fun pre path => Ok (Registry.mount_matches pre path)) /\
  agrees2 gen_pointer_for (fun pre path => Ok (Registry.pointer_for pre path)) /\
  agrees1 gen_registry_prefix (fun prefix => Ok (Registry.normalize_prefix prefix)).
Check C14_source_translation_errors :
  (forall p e, Registry.parse_pointer p = Registry.Err e -> e = Registry.EInvalidPointer) /\
  (forall p e, Registry.canonical_key p = Registry.Err e -> e = Registry.EInvalidPointer) /\
  (forall p e, Registry.parse_registration_path p = Registry.Err e -> e = Registry.EInvalidPointer).

(** the definitions used above are the plain ones *)
Check (eq_refl : utf8_cont_ok = fun s => cont_ok_after 0 s).
Check (eq_refl : cont_ok_after = fix cont_ok_after (prev : byte) (s : str) : bool :=
  match s with
  | [] => true
  | b :: s' => negb ((prev <? 128) && (128 <=? b) && (b <? 192)) && cont_ok_after b s'
  end).
Check (eq_refl : @gen_res = fun A r =>
  match r with Registry.Ok a => ROk a | Registry.Err _ => RErr GE_InvalidPointer end).
Check (eq_refl : @opt_res = fun A o => match o with Some a => ROk a | None => RErr tt end).
Check (eq_refl : register_spec = fun ens path =>
  match Registry.parse_registration_path path with
  | Registry.Err _ => RErr GE_InvalidPointer
  | Registry.Ok [] => RErr GE_InvalidPointer
  | Registry.Ok segs =>
      match ens segs with
      | RErr e => RErr e
      | ROk _ => ROk (RegFn (Some segs) (Some (Registry.canonical_pointer segs)))
      end
  end).

Print Assumptions C14_source_translation.
Print Assumptions C14_source_translation_errors.

(** ** the lock structure of the registry is the one re-translated from the Rust source on this run
    (bin/rs2v, lock-structure mode: Gen/RegLocksGen.v, Proofs/RegLocksGenAgree.v).  Each method of
    src/registry.rs is rendered as a plan of lock acquisitions ([TAcq LRd] = [self.read_state()], [TAcq LWr]
    = [self.write_state()]), releases ([TRel]) and invocations of the user callable ([TCall]); [exec] runs
    it while OTHER threads change the shared state wherever this thread holds no guard ([env n]: what they
    do before this thread's [n]-th acquisition).  Every mutator is ONE write section whose effect and
    answer are the model's [rstep] on the state found when the lock is granted; a read is ONE read
    section; [dispatch_with_ctx] with a body is the model's pair: the decision [fget] under the read lock,
    the guard released, then either the callable invoked with NO guard held and nothing locked after it, or
    (no lock held while the pointer is parsed) ONE write section that is the model's [dispatch_decided] on
    the state found THEN -- the two sections of [csection] ([C14_requests_linearizable] is about those).
    Not translated (the model's function is the fixed meaning): the tree walks [resolve_ref] -> [resolve],
    [set_pointer] -> [set_ptr], [ensure_object_parent] -> [reg_at .. None]; the pointer functions are tied
    by [C14_source_translation] above. *)
From RepeV Require Import Base.GenRegLocksPrelude Gen.RegLocksGen Proofs.RegLocksGenAgree.

Theorem C14_source_translation_locks :
  match gen_reg_set_root with Some f => forall env busy s v, exec env busy (f v) s = section_of LWr (SetRoot v) env s | None => True end /\
  match gen_reg_register_value with Some f => forall env busy s p v, exec env busy (f p v) s = section_of LWr (RegValue p v) env s | None => True end /\
  match gen_reg_merge_root with Some f => forall env busy s o, exec env busy (f o) s = section_of LWr (MergeRoot o) env s | None => True end /\
  match gen_reg_merge_at with Some f => forall env busy s p o, exec env busy (f p o) s = section_of LWr (MergeAt p o) env s | None => True end /\
  match gen_reg_register_function_arc with
  | Some f => forall env busy s p fid, exec env busy (f p fid) s = section_of LWr (RegFun p fid) env s
  | None => True
  end /\
  match gen_reg_read_value with Some f => forall env busy s p, exec env busy (f p) s = section_of LRd (ReadValue p) env s | None => True end /\
  match gen_reg_dispatch_with_ctx with
  | Some f => forall env busy s p,
      exec env busy (f p None) s =
      match Registry.canonical_key p with
      | Registry.Err e => (s, [], Registry.RErr e)
      | Registry.Ok _ => section_of LRd (Dispatch p None) env s
      end
  | None => True
  end /\
  match gen_reg_dispatch_with_ctx with
  | Some f => forall env busy s p payload, exec env busy (f p (Some payload)) s = dispatch_pair p payload env s
  | None => True
  end.
Proof.
  exact (conj reg_set_root_agrees (conj reg_register_value_agrees (conj reg_merge_root_agrees (conj reg_merge_at_agrees
        (conj reg_register_function_arc_agrees (conj reg_read_value_agrees (conj reg_dispatch_read_agrees reg_dispatch_write_agrees))))))).
Qed.

(** [dispatch_pair] is the thread model's two sections, and its trace carries the model's call log *)
Theorem C14_source_translation_locks_model :
  (forall p payload rest key, Registry.canonical_key p = Registry.Ok key ->
     (forall s1, csection s1 (mkT None (Dispatch p (Some payload) :: rest)) =
                 (s1, mkT (Some (fget (r_funs s1) key)) (Dispatch p (Some payload) :: rest), None)) /\
     (forall s2 d, csection s2 (mkT (Some d) (Dispatch p (Some payload) :: rest)) =
                   let '(s3, r, lg) := dispatch_decided s2 p payload d in (s3, mkT None rest, Some (Dispatch p (Some payload), r, lg)))) /\
  (forall p payload env s,
     calls_of (snd (fst (dispatch_pair p payload env s))) =
     match Registry.canonical_key p with
     | Registry.Err _ => []
     | Registry.Ok key => match fget (r_funs (env 0%nat s)) key with Some fid => [(fid, payload)] | None => [] end
     end) /\
  (forall fid arg, of_cres (model_user fid arg) = fun_out fid arg).
Proof. exact (conj dispatch_pair_csection (conj dispatch_pair_calls of_cres_model)). Qed.

Check C14_source_translation_locks :
  match gen_reg_set_root with Some f => forall env busy s v, exec env busy (f v) s = section_of LWr (SetRoot v) env s | None => True end /\
  match gen_reg_register_value with Some f => forall env busy s p v, exec env busy (f p v) s = section_of LWr (RegValue p v) env s | None => True end /\
  match gen_reg_merge_root with Some f => forall env busy s o, exec env busy (f o) s = section_of LWr (MergeRoot o) env s | None => True end /\
  match gen_reg_merge_at with Some f => forall env busy s p o, exec env busy (f p o) s = section_of LWr (MergeAt p o) env s | None => True end /\
  match gen_reg_register_function_arc with
  | Some f => forall env busy s p fid, exec env busy (f p fid) s = section_of LWr (RegFun p fid) env s
  | None => True
  end /\
  match gen_reg_read_value with Some f => forall env busy s p, exec env busy (f p) s = section_of LRd (ReadValue p) env s | None => True end /\
  match gen_reg_dispatch_with_ctx with
  | Some f => forall env busy s p,
      exec env busy (f p None) s =
      match Registry.canonical_key p with
      | Registry.Err e => (s, [], Registry.RErr e)
      | Registry.Ok _ => section_of LRd (Dispatch p None) env s
      end
  | None => True
  end /\
  match gen_reg_dispatch_with_ctx with
  | Some f => forall env busy s p payload, exec env busy (f p (Some payload)) s = dispatch_pair p payload env s
  | None => True
  end.
Check C14_source_translation_locks_model :
  (forall p payload rest key, Registry.canonical_key p = Registry.Ok key ->
     (forall s1, csection s1 (mkT None (Dispatch p (Some payload) :: rest)) =
                 (s1, mkT (Some (fget (r_funs s1) key)) (Dispatch p (Some payload) :: rest), None)) /\
     (forall s2 d, csection s2 (mkT (Some d) (Dispatch p (Some payload) :: rest)) =
                   let '(s3, r, lg) := dispatch_decided s2 p payload d in (s3, mkT None rest, Some (Dispatch p (Some payload), r, lg)))) /\
  (forall p payload env s,
     calls_of (snd (fst (dispatch_pair p payload env s))) =
     match Registry.canonical_key p with
     | Registry.Err _ => []
     | Registry.Ok key => match fget (r_funs (env 0%nat s)) key with Some fid => [(fid, payload)] | None => [] end
     end) /\
  (forall fid arg, of_cres (model_user fid arg) = fun_out fid arg).

(** the definitions used above are the plain ones *)
Check (eq_refl : exec = fun env busy p s => run model_user env busy 0 false p s).
Check (eq_refl : section_of = fun m op env s =>
  let s1 := env 0%nat s in
  let '(s2, r, _) := rstep None s1 op in (s2, [TAcq m; TRel], r)).
Check (eq_refl : dispatch_pair = fun p payload env s =>
  match Registry.canonical_key p with
  | Registry.Err e => (s, [], Registry.RErr e)
  | Registry.Ok key =>
      let s1 := env 0%nat s in
      let d := fget (r_funs s1) key in
      match d with
      | Some fid =>
          let '(s3, r, _) := dispatch_decided s1 p payload d in (s3, [TAcq LRd; TRel; TCall fid payload], r)
      | None =>
          match Registry.parse_pointer p with
          | Registry.Err e => (s1, [TAcq LRd; TRel], Registry.RErr e)
          | Registry.Ok _ =>
              let s2 := env 1%nat s1 in
              let '(s3, r, _) := dispatch_decided s2 p payload d in (s3, [TAcq LRd; TRel; TAcq LWr; TRel], r)
          end
      end
  end).
Check (eq_refl : run = fix run (user : N -> json -> cres) (env : nat -> rstate -> rstate) (busy : nat -> bool)
             (n : nat) (held : bool) (p : lplan) (s : rstate) {struct p} : rstate * list tev * rout :=
  match p with
  | LDone r => (s, [], r)
  | LPanic => (s, [TPanic], RNoRoute)
  | LAcq m k =>
      if held then (s, [TDeadlock], RNoRoute)
      else let s1 := env n s in
           let '(s', tr, r) := run user env busy (S n) true (k s1) s1 in (s', TAcq m :: tr, r)
  | LTry m k b =>
      if held || busy n then
        let '(s', tr, r) := run user env busy (S n) held b s in (s', TBusy :: tr, r)
      else let s1 := env n s in
           let '(s', tr, r) := run user env busy (S n) true (k s1) s1 in (s', TAcq m :: tr, r)
  | LRel w k =>
      let '(s', tr, r) := run user env busy n false k (match w with Some s1 => s1 | None => s end) in
      (s', TRel :: tr, r)
  | LCall fid arg k =>
      let '(s', tr, r) := run user env busy n held (k (user fid arg)) s in (s', TCall fid arg :: tr, r)
  | LAtomic k =>
      let '(s', tr, r) := run user env busy n held k s in (s', TAtomic :: tr, r)
  end).
Check (eq_refl : model_user = fun fid arg => if (fid mod 4 =? 3)%N then CRErr APP_ERROR else CROk (JArr [JNum fid; arg])).
Check (eq_refl : of_cres = fun r => match r with CROk j => Registry.ROk j | CRErr c => Registry.RErr (EExec c) end).

Print Assumptions C14_source_translation_locks.
Print Assumptions C14_source_translation_locks_model.
