(** C13 — Replay ring and resume: the ring is a contiguous suffix of what was
    pushed (oldest evicted first), bounded by its byte capacity (or one chunk),
    always retains the most recent chunk; a resume is accepted exactly at a
    retained chunk boundary (or the end), and the replay that follows is the
    gapless tail from that offset.
    This file contains only statements (each derived in a line or two from the
    lemma of Proofs/ it is an instance of), their pins and their assumptions. *)
From RepeV Require Import Model.C11 Proofs.StreamProofs.

(** evicts oldest first: the ring is always a suffix of what was pushed since
    the last advance *)
Theorem C13_ring_suffix : forall w c ops,
  hist_ok w c ops = true ->
  exists pre, pushed_since_advance ops = pre ++ t_ring (exec (init w c) ops).
Proof. intros w c ops H. apply (minvA_hist w c ops H). Qed.

(** bounded: at most one chunk, or within the byte capacity.  [wire_small]
    (fewer than 2^64 wire bytes pushed in total) is needed because [bytes_held]
    is a saturating u64 in the code; see [C13_saturation_breaks_bound]. *)
Theorem C13_ring_bounded : forall w c ops,
  hist_ok w c ops = true -> wire_small ops ->
  let s := exec (init w c) ops in
  (length (t_ring s) <= 1)%nat \/ sum_wire (t_ring s) <= t_cap s.
Proof.
  intros w c ops _ Hw.
  apply (hist_invariant (fun _ => minvB) (fun _ => stepB) ops [] _ (minvB_init w c ops Hw)).
Qed.

(** the most recent chunk is always retained *)
Theorem C13_most_recent_retained : forall s c,
  t_ring (ring_push s c) <> [] /\ last (t_ring (ring_push s c)) c = c.
Proof. exact most_recent_retained. Qed.

(** a resume is accepted exactly when not cancelled, for the current file, at a
    covered offset *)
Theorem C13_resume_accept_iff : forall s p f n,
  (exists s', step s (Resume p f n) = (s', OResumeOk n)) <->
  t_cancelled s = None /\ f = t_file s /\ covers (t_ring s) n = true.
Proof. exact resume_accept_iff. Qed.

(** covered offsets: a retained chunk's start, or the end of the newest chunk
    (offset 0 for an empty ring) *)
Theorem C13_covers_spec : forall ring n,
  covers ring n = true <->
  (ring = [] /\ n = 0) \/
  (ring <> [] /\ ((exists c, In c ring /\ ck_off c = n) \/ ck_end (last ring (mkChunk 0 0 false [])) = n)).
Proof. exact covers_spec. Qed.

(** the replay from a covered offset is a gapless tail of the ring starting
    exactly there (empty only at the very end) *)
Theorem C13_replay_gapless : forall ring n,
  contiguous ring = true -> covers ring n = true ->
  let cs := replay_from ring n in
  is_suffix cs ring = true /\ contiguous cs = true /\
  match cs with
  | [] => ring = [] /\ n = 0 \/ ring <> [] /\ ck_end (last ring (mkChunk 0 0 false [])) = n
  | c0 :: _ => ck_off c0 = n
  end.
Proof. exact replay_gapless. Qed.

(** on well-formed histories (abutting pushes) the ring is contiguous *)
Theorem C13_ring_contiguous : forall w c ops,
  hist_ok w c ops = true -> contiguous (t_ring (exec (init w c) ops)) = true.
Proof. intros w c ops H. exact (minvA_contiguous _ _ _ (minvA_hist w c ops H)). Qed.

(** advancing to the next file empties the ring and drops a pending resume *)
Theorem C13_advance_empties : forall s f,
  t_ring (fst (step s (Advance f))) = [] /\ t_pending (fst (step s (Advance f))) = None /\
  t_held (fst (step s (Advance f))) = 0.
Proof. exact advance_empties. Qed.

(** the executable oracle accepts the model on every well-formed history that
    pushes fewer than 2^64 wire bytes in total.  The statement without
    [wire_small] is false ([C13_saturation_breaks_bound]), hence the name. *)
Theorem C13_holds_partial : forall w c ops,
  hist_ok w c ops = true -> wire_small ops -> ok_C13 c ops (model_trace w c ops) = true.
Proof. exact ok_model_C13. Qed.

(** [wire_small] cannot be dropped from [C13_holds_partial]: two pushes whose
    bodies have 2^63 bytes each saturate [bytes_held], nothing is evicted and
    the ring exceeds its capacity *)
Theorem C13_saturation_breaks_bound :
  exists w c ops, hist_ok w c ops = true /\ ok_C13 c ops (model_trace w c ops) = false.
Proof. exact saturation_breaks_bound. Qed.

(** non-vacuity: a well-formed history with abutting pushes that overflow the
    capacity (eviction), a zero-length chunk, an accepted resume followed by
    its replay, rejected resumes, a reconnect, an advance and a cancel *)
Example C13_nonvacuous :
  let ops := [Push 0 4 false [1; 2; 3; 4; 5]; Push 4 4 false [1; 2; 3; 4; 5]; Push 8 0 false [9];
              Push 8 4 false [1; 2; 3; 4; 5]; Resume 7 0 8; Replay 8; TryReconnect; Resume 7 0 0;
              Resume 7 1 8; Resume 7 0 12; Replay 12; Advance 1; Resume 8 1 0; Replay 0;
              Push 0 2 true [1; 2]; Cancel 5; Resume 9 1 0; TryReconnect] in
  hist_ok 16 12 ops = true /\ wire_small ops /\ ok_C13 12 ops (model_trace 16 12 ops) = true /\
  map ck_off (t_ring (exec (init 16 12) (firstn 4 ops))) = [4; 8; 8] /\
  map fst (model_trace 16 12 ops)
  = [ONone; ONone; ONone; ONone; OResumeOk 8;
     OChunks [mkChunk 8 0 false [9]; mkChunk 8 4 false [1; 2; 3; 4; 5]];
     OResumeReady 8; ORejOutOfWindow; ORejWrongFile 1 0; OResumeOk 12; OChunks []; ONone;
     OResumeOk 0; OChunks []; ONone; ONone; ORejCancelled; OReconnCancelled 5].
Proof. vm_compute. repeat split. Qed.

Check C13_ring_suffix : forall w c ops, hist_ok w c ops = true ->
  exists pre, pushed_since_advance ops = pre ++ t_ring (exec (init w c) ops).
Check C13_ring_bounded : forall w c ops, hist_ok w c ops = true -> wire_small ops ->
  let s := exec (init w c) ops in
  (length (t_ring s) <= 1)%nat \/ sum_wire (t_ring s) <= t_cap s.
Check C13_most_recent_retained : forall s c,
  t_ring (ring_push s c) <> [] /\ last (t_ring (ring_push s c)) c = c.
Check C13_resume_accept_iff : forall s p f n,
  (exists s', step s (Resume p f n) = (s', OResumeOk n)) <->
  t_cancelled s = None /\ f = t_file s /\ covers (t_ring s) n = true.
Check C13_covers_spec : forall ring n, covers ring n = true <->
  (ring = [] /\ n = 0) \/
  (ring <> [] /\ ((exists c, In c ring /\ ck_off c = n) \/ ck_end (last ring (mkChunk 0 0 false [])) = n)).
Check C13_replay_gapless : forall ring n, contiguous ring = true -> covers ring n = true ->
  let cs := replay_from ring n in
  is_suffix cs ring = true /\ contiguous cs = true /\
  match cs with
  | [] => ring = [] /\ n = 0 \/ ring <> [] /\ ck_end (last ring (mkChunk 0 0 false [])) = n
  | c0 :: _ => ck_off c0 = n
  end.
Check C13_ring_contiguous : forall w c ops,
  hist_ok w c ops = true -> contiguous (t_ring (exec (init w c) ops)) = true.
Check C13_advance_empties : forall s f,
  t_ring (fst (step s (Advance f))) = [] /\ t_pending (fst (step s (Advance f))) = None /\
  t_held (fst (step s (Advance f))) = 0.
Check C13_holds_partial : forall w c ops,
  hist_ok w c ops = true -> wire_small ops -> ok_C13 c ops (model_trace w c ops) = true.
Check C13_saturation_breaks_bound :
  exists w c ops, hist_ok w c ops = true /\ ok_C13 c ops (model_trace w c ops) = false.

Print Assumptions C13_ring_suffix.
Print Assumptions C13_ring_bounded.
Print Assumptions C13_most_recent_retained.
Print Assumptions C13_resume_accept_iff.
Print Assumptions C13_covers_spec.
Print Assumptions C13_replay_gapless.
Print Assumptions C13_ring_contiguous.
Print Assumptions C13_advance_empties.
Print Assumptions C13_holds_partial.
Print Assumptions C13_saturation_breaks_bound.

(** ** tie to the source text (see Props/C11.v): the re-translated bodies of
    request_resume, push_replay, replay_chunks_from and of the ReplayRing
    methods are the model's steps / [covers] / [ring_push] (the fuelled
    rendering of the eviction [while] is the model's [evict], and its fuel
    suffices: the loop test is false on exit) / [replay_from]. *)
From RepeV Require Import Model.Condvar Base.GenPrelude Gen.StreamGen Proofs.StreamGenAgree.

Theorem C13_source_translation :
  match gen_request_resume with
  | Some f => forall s p fi n,
      let '(s', r, nt) := f s p fi n in
      (s', out_of_resume r, nt) = (step s (Resume p fi n), notifies s (Resume p fi n))
  | None => True
  end /\
  agrees5 gen_push_replay (fun s off len lst body => (fst (step s (Push off len lst body)), false)) /\
  match gen_replay_chunks_from with
  | Some f => forall s n, let '(s', cs, nt) := f s n in (s', OChunks cs, nt) = (step s (Replay n), false)
  | None => True
  end /\
  agrees2 gen_ring_covers (fun s o => covers (t_ring s) o) /\
  agrees5 gen_ring_push (fun s off len lst body => ring_push s (mkChunk off len lst body)) /\
  match gen_ring_push with
  | Some f => forall s off len lst body,
      let s' := f s off len lst body in
      (t_cap s' <? t_held s') && (1 <? N.of_nat (length (t_ring s'))) = false
  | None => True
  end /\
  agrees2 gen_ring_replay_from (fun s o => replay_from (t_ring s) o) /\
  agrees1 gen_ring_clear (fun s => mkTc (t_window s) (t_sent s) (t_acked s) (t_file s) (t_cancelled s) [] 0
                                        (t_cap s) (t_peer s) (t_pending s)) /\
  agrees1 gen_ring_highest_end_offset
          (fun s => match t_ring s with [] => None | r => Some (ck_end (last r (mkChunk 0 0 false []))) end).
Proof.
  exact (conj request_resume_agrees (conj push_replay_agrees (conj replay_chunks_from_step (conj ring_covers_agrees
        (conj ring_push_agrees (conj ring_push_fuel_enough (conj ring_replay_from_agrees
        (conj ring_clear_agrees ring_highest_end_offset_agrees)))))))).
Qed.

Check C13_source_translation :
  match gen_request_resume with
  | Some f => forall s p fi n,
      let '(s', r, nt) := f s p fi n in
      (s', out_of_resume r, nt) = (step s (Resume p fi n), notifies s (Resume p fi n))
  | None => True
  end /\
  agrees5 gen_push_replay (fun s off len lst body => (fst (step s (Push off len lst body)), false)) /\
  match gen_replay_chunks_from with
  | Some f => forall s n, let '(s', cs, nt) := f s n in (s', OChunks cs, nt) = (step s (Replay n), false)
  | None => True
  end /\
  agrees2 gen_ring_covers (fun s o => covers (t_ring s) o) /\
  agrees5 gen_ring_push (fun s off len lst body => ring_push s (mkChunk off len lst body)) /\
  match gen_ring_push with
  | Some f => forall s off len lst body,
      let s' := f s off len lst body in
      (t_cap s' <? t_held s') && (1 <? N.of_nat (length (t_ring s'))) = false
  | None => True
  end /\
  agrees2 gen_ring_replay_from (fun s o => replay_from (t_ring s) o) /\
  agrees1 gen_ring_clear (fun s => mkTc (t_window s) (t_sent s) (t_acked s) (t_file s) (t_cancelled s) [] 0
                                        (t_cap s) (t_peer s) (t_pending s)) /\
  agrees1 gen_ring_highest_end_offset
          (fun s => match t_ring s with [] => None | r => Some (ck_end (last r (mkChunk 0 0 false []))) end).

Print Assumptions C13_source_translation.
