(** C18 — Peer registry: the peer map, the forward alias map and the reverse
    alias index (one mutex) refine the specification "present peers + one list
    of (key, id) assignments in assignment order, each key at most once".
    This file contains only statements (each derived in a line or two from the
    lemma of Proofs/ it is an instance of), their pins, their assumptions and
    examples. *)
From RepeV Require Import Model.Peers Proofs.PeersProofs.

(** the concrete registry and the specification produce the same observations
    (results, len, get, get_by, aliases_for, key_for) after every operation of
    every history, over every universe of ids and keys *)
Theorem C18_refines : forall ids keys ops, model_C18 ids keys ops = spec_C18 ids keys ops.
Proof. exact model_refines_spec. Qed.

(** the executable oracle (also applied to the implementation's observations)
    accepts the model on every history *)
Theorem C18_holds : forall ids keys ops, ok_C18 ids keys ops (model_C18 ids keys ops) = true.
Proof. exact ok_model_C18. Qed.

(** ** readable consequences, on the specification side *)

(** attaching a key to a present peer makes the key resolve to it and changes
    no other key *)
Theorem C18_lookup_after_alias : forall s id k,
  spec_inv s -> memN id (s_present s) = true ->
  let s' := fst (sstep s (PAlias id k)) in
  sp_lookup s' k = Some id /\ (forall k', k' <> k -> sp_lookup s' k' = sp_lookup s k').
Proof.
  intros s id k _ Hp. split; [|intros k' Hk]; rewrite (lookup_after_alias s id k _ Hp).
  - now rewrite N.eqb_refl.
  - destruct (N.eqb_spec k k'); [congruence|reflexivity].
Qed.

(** an alias for an absent peer is refused and changes nothing *)
Theorem C18_alias_absent_peer_refused : forall s id k,
  memN id (s_present s) = false -> sstep s (PAlias id k) = (s, PBool false).
Proof. exact spec_alias_absent. Qed.

(** a peer's alias list is exactly the set of keys that resolve to it *)
Theorem C18_alias_list_exact : forall s id k,
  spec_inv s -> (In k (sp_aliases_for s id) <-> sp_lookup s k = Some id).
Proof. intros s id k I. apply In_afor. exact I. Qed.

(** removing a peer drops exactly the keys it owns *)
Theorem C18_remove_only_own_keys : forall s id k,
  spec_inv s ->
  let s' := fst (sstep s (PRemove id)) in
  sp_lookup s' k = (match sp_lookup s k with
                    | Some owner => if owner =? id then None else Some owner
                    | None => None
                    end).
Proof. intros s id k I. exact (spec_remove_lookup s id k I). Qed.

(** re-pointing a key takes it off the previous owner's list and appends it
    to the new owner's list *)
Theorem C18_repoint_moves_key : forall s id id' k,
  spec_inv s -> sp_lookup s k = Some id -> id' <> id -> memN id' (s_present s) = true ->
  let s' := fst (sstep s (PAlias id' k)) in
  ~ In k (sp_aliases_for s' id) /\ sp_aliases_for s' id' = sp_aliases_for s id' ++ [k].
Proof. intros s id id' k I L Hne Hp. exact (spec_repoint s id id' k I L Hne Hp). Qed.

(** a broadcast reaches exactly the present peers and changes nothing *)
Theorem C18_broadcast_exactly_present : forall s, sstep s PBroadcast = (s, PIds (s_present s)).
Proof. reflexivity. Qed.

(** the invariant assumed above holds in every reachable specification state *)
Theorem C18_spec_inv_reachable : forall ops,
  spec_inv (fold_left (fun s o => fst (sstep s o)) ops pspec_empty).
Proof. intros ops. exact (spec_inv_reachable ops pspec_empty spec_inv_empty). Qed.

(** non-vacuity: a history with two attachments, a re-pointing (key 10 moves
    from peer 1 to peer 2), a refused alias for the absent peer 3, a broadcast,
    the removal of peer 1 (its remaining key 11 stops resolving, key 10 now
    owned by peer 2 survives), a re-attachment and the removal of an absent
    peer; observed over ids 1,2,3 and keys 10,11,12 *)
Definition c18_ops : list pop :=
  [PInsert 2; PInsert 1; PAlias 1 10; PAlias 1 11; PAlias 2 10; PAlias 3 12; PBroadcast;
   PRemove 1; PAlias 2 11; PRemove 3].

Example C18_nonvacuous_results :
  map b_out (model_C18 [1; 2; 3] [10; 11; 12] c18_ops)
  = [PUnit; PUnit; PBool true; PBool true; PBool true; PBool false; PIds [1; 2]; PBool true;
     PBool true; PBool false].
Proof. vm_compute. reflexivity. Qed.

Example C18_nonvacuous_by_key :
  map b_by_key (model_C18 [1; 2; 3] [10; 11; 12] c18_ops)
  = [[None; None; None]; [None; None; None]; [Some 1; None; None]; [Some 1; Some 1; None];
     [Some 2; Some 1; None]; [Some 2; Some 1; None]; [Some 2; Some 1; None]; [Some 2; None; None];
     [Some 2; Some 2; None]; [Some 2; Some 2; None]].
Proof. vm_compute. reflexivity. Qed.

Example C18_nonvacuous_aliases :
  map b_aliases (model_C18 [1; 2; 3] [10; 11; 12] c18_ops)
  = [[[]; []; []]; [[]; []; []]; [[10]; []; []]; [[10; 11]; []; []]; [[11]; [10]; []];
     [[11]; [10]; []]; [[11]; [10]; []]; [[]; [10]; []]; [[]; [10; 11]; []]; [[]; [10; 11]; []]].
Proof. vm_compute. reflexivity. Qed.

Example C18_nonvacuous_key_for_len :
  map (fun b => (b_key_for b, b_len b)) (model_C18 [1; 2; 3] [10; 11; 12] c18_ops)
  = [([None; None; None], 1); ([None; None; None], 2); ([Some 10; None; None], 2);
     ([Some 10; None; None], 2); ([Some 11; Some 10; None], 2); ([Some 11; Some 10; None], 2);
     ([Some 11; Some 10; None], 2); ([None; Some 10; None], 1); ([None; Some 10; None], 1);
     ([None; Some 10; None], 1)].
Proof. vm_compute. reflexivity. Qed.

(** the concrete registry after the re-pointing: both index entries live, and
    after re-pointing peer 1's last key away its index entry stays, empty *)
Example C18_nonvacuous_state :
  fold_left (fun c o => fst (pstep c o)) (firstn 5 c18_ops) preg_empty
  = mkPreg [1; 2] [(10, 2); (11, 1)] [(1, [11]); (2, [10])] /\
  fold_left (fun c o => fst (pstep c o)) [PInsert 1; PInsert 2; PAlias 1 10; PAlias 2 10] preg_empty
  = mkPreg [1; 2] [(10, 2)] [(1, []); (2, [10])].
Proof. vm_compute. split; reflexivity. Qed.

(** the oracle is not trivially true: it rejects a trace in which the removal
    of peer 1 also dropped key 10, which peer 2 owns by then *)
Example C18_oracle_rejects :
  let ops := [PInsert 1; PInsert 2; PAlias 1 10; PAlias 2 10; PRemove 1] in
  let tr := model_C18 [1; 2] [10] ops in
  ok_C18 [1; 2] [10] ops tr = true /\
  ok_C18 [1; 2] [10] ops
    (firstn 4 tr ++ [mkPobs (PBool true) 1 [false; true] [None] [[]; []] [None; None]]) = false.
Proof. vm_compute. split; reflexivity. Qed.

(** the hypotheses of the readable consequences are satisfiable together *)
Example C18_nonvacuous_repoint :
  let s := fold_left (fun s o => fst (sstep s o)) [PInsert 1; PInsert 2; PAlias 1 10; PAlias 1 11] pspec_empty in
  sp_lookup s 10 = Some 1 /\ memN 2 (s_present s) = true /\
  sp_aliases_for (fst (sstep s (PAlias 2 10))) 1 = [11] /\
  sp_aliases_for (fst (sstep s (PAlias 2 10))) 2 = [10] /\
  sp_lookup (fst (sstep (fst (sstep s (PAlias 2 10))) (PRemove 1))) 10 = Some 2 /\
  sp_lookup (fst (sstep (fst (sstep s (PAlias 2 10))) (PRemove 1))) 11 = None.
Proof. vm_compute. repeat split; reflexivity. Qed.

Check C18_refines : forall ids keys ops, model_C18 ids keys ops = spec_C18 ids keys ops.
Check C18_holds : forall ids keys ops, ok_C18 ids keys ops (model_C18 ids keys ops) = true.
Check C18_lookup_after_alias : forall s id k,
  spec_inv s -> memN id (s_present s) = true ->
  let s' := fst (sstep s (PAlias id k)) in
  sp_lookup s' k = Some id /\ (forall k', k' <> k -> sp_lookup s' k' = sp_lookup s k').
Check C18_alias_absent_peer_refused : forall s id k,
  memN id (s_present s) = false -> sstep s (PAlias id k) = (s, PBool false).
Check C18_alias_list_exact : forall s id k,
  spec_inv s -> (In k (sp_aliases_for s id) <-> sp_lookup s k = Some id).
Check C18_remove_only_own_keys : forall s id k,
  spec_inv s ->
  let s' := fst (sstep s (PRemove id)) in
  sp_lookup s' k = (match sp_lookup s k with
                    | Some owner => if owner =? id then None else Some owner
                    | None => None
                    end).
Check C18_repoint_moves_key : forall s id id' k,
  spec_inv s -> sp_lookup s k = Some id -> id' <> id -> memN id' (s_present s) = true ->
  let s' := fst (sstep s (PAlias id' k)) in
  ~ In k (sp_aliases_for s' id) /\ sp_aliases_for s' id' = sp_aliases_for s id' ++ [k].
Check C18_broadcast_exactly_present : forall s, sstep s PBroadcast = (s, PIds (s_present s)).
Check C18_spec_inv_reachable : forall ops,
  spec_inv (fold_left (fun s o => fst (sstep s o)) ops pspec_empty).

(** [spec_inv] is the plain statement "each key is assigned at most once" *)
Check (eq_refl : spec_inv = fun s => NoDup (map fst (s_assign s))).

Print Assumptions C18_refines.
Print Assumptions C18_holds.
Print Assumptions C18_lookup_after_alias.
Print Assumptions C18_alias_absent_peer_refused.
Print Assumptions C18_alias_list_exact.
Print Assumptions C18_remove_only_own_keys.
Print Assumptions C18_repoint_moves_key.
Print Assumptions C18_broadcast_exactly_present.
Print Assumptions C18_spec_inv_reachable.

(** ** the methods of the model are the ones re-translated from the Rust source on this run
    (bin/rs2v, critical-section mode: Gen/PeersGen.v, Proofs/PeersGenAgree.v).  A rendered method is a
    [plan]; [run p s] gives the final state, the peers [send_notify] was called on (in order), the
    number of critical sections and the value.  Every method is ONE critical section -- the model's
    step or query --, and the broadcast snapshots the handles in that one section and then sends to
    exactly the snapshotted peers, once each, outside the lock. *)
From RepeV Require Import Base.GenPeersPrelude Gen.PeersGen Proofs.PeersGenAgree.

Theorem C18_source_translation :
  match gen_peer_insert with Some f => forall s id, run (f id) s = (fst (pstep s (PInsert id)), [], 1%nat, tt) | None => True end /\
  match gen_peer_remove with Some f => forall s id, run (f id) s = (fst (pstep s (PRemove id)), [], 1%nat, found s id) | None => True end /\
  match gen_peer_alias with
  | Some f => forall s id key, run (f id key) s = (fst (pstep s (PAlias id key)), [], 1%nat, pbool (snd (pstep s (PAlias id key))))
  | None => True
  end /\
  match gen_peer_get with Some f => forall s id, run (f id) s = (s, [], 1%nat, found s id) | None => True end /\
  match gen_peer_get_by with Some f => forall s key, run (f key) s = (s, [], 1%nat, q_get_by s key) | None => True end /\
  match gen_peer_key_for with Some f => forall s id, run (f id) s = (s, [], 1%nat, q_key_for s id) | None => True end /\
  match gen_peer_aliases_for with Some f => forall s id, run (f id) s = (s, [], 1%nat, q_aliases_for s id) | None => True end /\
  match gen_peer_len with Some f => forall s, run f s = (s, [], 1%nat, q_len s) | None => True end /\
  match gen_peer_peers with Some f => forall s, run f s = (s, [], 1%nat, p_peers s) | None => True end /\
  match gen_peer_broadcast_each with
  | Some f => forall s, ssorted (p_peers s) = true -> run f s = (s, p_peers s, 1%nat, p_peers s)
  | None => True
  end.
Proof.
  exact (conj peer_insert_agrees (conj peer_remove_agrees (conj peer_alias_agrees (conj peer_get_agrees
        (conj peer_get_by_agrees (conj peer_key_for_agrees (conj peer_aliases_for_agrees (conj peer_len_agrees
        (conj peer_peers_agrees peer_broadcast_each_agrees))))))))).
Qed.

Theorem C18_source_translation_model :
  (forall s id, snd (pstep s (PRemove id)) = PBool (opt_is_some (found s id))) /\
  (forall s id key, exists b, snd (pstep s (PAlias id key)) = PBool b) /\
  (forall s, pstep s PBroadcast = (s, PIds (p_peers s))) /\
  (forall ops, ssorted (p_peers (fold_left (fun c o => fst (pstep c o)) ops preg_empty)) = true).
Proof.
  exact (conj remove_reports_found (conj alias_reports_bool (conj (fun s => eq_refl)
        (fun ops => peers_sorted_reachable ops preg_empty eq_refl)))).
Qed.

Check C18_source_translation :
  match gen_peer_insert with Some f => forall s id, run (f id) s = (fst (pstep s (PInsert id)), [], 1%nat, tt) | None => True end /\
  match gen_peer_remove with Some f => forall s id, run (f id) s = (fst (pstep s (PRemove id)), [], 1%nat, found s id) | None => True end /\
  match gen_peer_alias with
  | Some f => forall s id key, run (f id key) s = (fst (pstep s (PAlias id key)), [], 1%nat, pbool (snd (pstep s (PAlias id key))))
  | None => True
  end /\
  match gen_peer_get with Some f => forall s id, run (f id) s = (s, [], 1%nat, found s id) | None => True end /\
  match gen_peer_get_by with Some f => forall s key, run (f key) s = (s, [], 1%nat, q_get_by s key) | None => True end /\
  match gen_peer_key_for with Some f => forall s id, run (f id) s = (s, [], 1%nat, q_key_for s id) | None => True end /\
  match gen_peer_aliases_for with Some f => forall s id, run (f id) s = (s, [], 1%nat, q_aliases_for s id) | None => True end /\
  match gen_peer_len with Some f => forall s, run f s = (s, [], 1%nat, q_len s) | None => True end /\
  match gen_peer_peers with Some f => forall s, run f s = (s, [], 1%nat, p_peers s) | None => True end /\
  match gen_peer_broadcast_each with
  | Some f => forall s, ssorted (p_peers s) = true -> run f s = (s, p_peers s, 1%nat, p_peers s)
  | None => True
  end.
Check C18_source_translation_model :
  (forall s id, snd (pstep s (PRemove id)) = PBool (opt_is_some (found s id))) /\
  (forall s id key, exists b, snd (pstep s (PAlias id key)) = PBool b) /\
  (forall s, pstep s PBroadcast = (s, PIds (p_peers s))) /\
  (forall ops, ssorted (p_peers (fold_left (fun c o => fst (pstep c o)) ops preg_empty)) = true).

(** the definitions used above are the plain ones *)
Check (eq_refl : found = fun s id => if q_get s id then Some id else None).
Check (eq_refl : pbool = fun o => match o with PBool b => b | _ => false end).
Check (eq_refl : ssorted = fix ssorted (l : list N) : bool :=
  match l with
  | x :: ((y :: _) as l') => (x <? y) && ssorted l'
  | _ => true
  end).
Check (eq_refl : @run = fix run (R : Type) (p : plan R) (s : preg) {struct p} : preg * list N * nat * R :=
  match p with
  | PDone r => (s, [], O, r)
  | PStep f => let '(s', p') := f s in let '(s'', sends, n, r) := run R p' s' in (s'', sends, S n, r)
  | PSend id p' => let '(s', sends, n, r) := run R p' s in (s', id :: sends, n, r)
  end).

Print Assumptions C18_source_translation.
Print Assumptions C18_source_translation_model.
