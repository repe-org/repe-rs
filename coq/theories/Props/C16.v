(** C16 — Off-reader handlers are capped, never block the reader or kill the
    connection.  One WebSocket connection is the state [(running, cap, outbox)]
    of Model/OffReader.v driven by [Arrive r] (the reader decoded request [r])
    and [Exit r how] (the blocking thread of [r] left its handler by return,
    error or panic).  This file contains only statements (closed by [exact] or
    a short application of lemmas), their pins and their assumptions. *)
From RepeV Require Import Model.OffReader Proofs.OffReaderProofs.
From RepeV Require Import Model.OutQueue Proofs.OutQueueProofs.
From Coq Require Import Permutation.
From RepeV Require Import Gen.Tables Proofs.TablesC01 Proofs.TablesMisc.

(** the number of held permits never exceeds the cap: in every state reachable
    by ANY event list (every prefix of every history, well-formed or not), and
    so does the maximum over a history *)
Theorem C16_running_le_cap : forall nmw c evs,
  running (run nmw (init (Some c)) evs) <= c /\ maxrun_from nmw (init (Some c)) evs <= c.
Proof.
  intros nmw c evs. split; [apply reachable_le_cap|].
  apply maxrun_le_cap; [reflexivity|]. cbn [init running]. lia.
Qed.

(** an off-reader request arriving at the cap is refused by the [Arrive] step
    itself: ResourceExhausted with the request's id is queued (nothing for a
    notify), [running] and the cap are unchanged *)
Theorem C16_saturated_reply_immediate : forall nmw s r,
  is_blocking_route (r_route r) = true -> saturated s = true ->
  step nmw s (Arrive r)
  = mkSt (running s) (cap s)
         (outbox s ++ (if r_notify r then [] else [(r_id r, EC_RESOURCE_EXHAUSTED)])) /\
  outcome_of nmw s (Arrive r) = (if r_notify r then ODrop else OReject).
Proof. exact step_saturated. Qed.

(** every exit frees one slot, by return, error and panic alike *)
Theorem C16_every_exit_frees_slot : forall nmw s r h,
  running (step nmw s (Exit r h)) = running s - 1 /\ cap (step nmw s (Exit r h)) = cap s.
Proof. intros nmw s r h. rewrite step_exit. split; reflexivity. Qed.

(** after a well-formed history the number of held permits is exactly the
    number of admitted requests that have not exited: no slot leaks *)
Theorem C16_running_counts_live : forall nmw c evs,
  wf_from c [] [] evs = true ->
  running (run nmw (init c) evs) = N.of_nat (length (live_after c [] evs)).
Proof.
  intros nmw c evs H.
  exact (proj2 (running_counts_live nmw c evs (init c) [] [] (tracks_init c) H)).
Qed.

(** a batch of off-reader requests that fits under the cap is admitted whole *)
Theorem C16_free_slots_admit : forall nmw c rs s,
  cap s = Some c -> running s + N.of_nat (length rs) <= c ->
  forallb (fun r => is_blocking_route (r_route r)) rs = true ->
  outs_from nmw s (map Arrive rs) = map (fun _ => OAdmit) rs /\
  running (run nmw s (map Arrive rs)) = running s + N.of_nat (length rs).
Proof. intros nmw c rs s. exact (batch_admitted nmw c rs s). Qed.

(** a panic is reported to its caller as InternalError with the request's id
    (nothing for a notify) and frees the slot *)
Theorem C16_panic_reports_internal_error_same_id : forall nmw s r,
  step nmw s (Exit r Panic)
  = mkSt (running s - 1) (cap s)
         (outbox s ++ (if r_notify r then [] else [(r_id r, EC_INTERNAL_ERROR)])).
Proof. intros nmw s r. exact (step_exit nmw s r Panic). Qed.

(** every reply in the outbox is a function of one event and that event's own
    outcome: the outbox is the concatenation of the per-event replies *)
Theorem C16_replies_determined_per_request : forall nmw c evs,
  outbox (run nmw (init c) evs) = implied_all evs (outs_from nmw (init c) evs).
Proof. intros nmw c evs. rewrite outbox_run. reflexivity. Qed.

(** under well-formedness no request is answered twice *)
Theorem C16_one_reply_per_request : forall c,
  c16_wf c = true -> NoDup (map fst (o_resp (model_C16 c))).
Proof.
  intros c H. apply andb_true_iff in H as [_ Hwf].
  exact (one_reply_gen _ _ _ _ [] [] (tracks_init _) (NoDup_nil _) (incl_refl _) Hwf).
Qed.

(** deleting a request refused at the cap from a history changes nothing for
    the others: same outcomes, same replies in the same order, same [running] *)
Theorem C16_others_unaffected_by_saturated : forall nmw s evs1 r evs2,
  is_blocking_route (r_route r) = true -> saturated (run nmw s evs1) = true ->
  let s1 := run nmw s evs1 in
  let mine := if r_notify r then [] else [(r_id r, EC_RESOURCE_EXHAUSTED)] in
  exists rest_outs rest_replies,
    outs_from nmw s (evs1 ++ Arrive r :: evs2)
      = outs_from nmw s evs1 ++ (if r_notify r then ODrop else OReject) :: rest_outs /\
    outs_from nmw s (evs1 ++ evs2) = outs_from nmw s evs1 ++ rest_outs /\
    outbox (run nmw s (evs1 ++ Arrive r :: evs2)) = outbox s1 ++ mine ++ rest_replies /\
    outbox (run nmw s (evs1 ++ evs2)) = outbox s1 ++ rest_replies /\
    running (run nmw s (evs1 ++ Arrive r :: evs2)) = running (run nmw s (evs1 ++ evs2)).
Proof.
  intros nmw s evs1 r evs2 Hb Hs s1 mine. destruct (step_saturated nmw s1 r Hb Hs) as [Hst Ho].
  destruct (others_unaffected nmw s evs1 (Arrive r) [] evs2) as (ro & rr & H1 & H2 & H3 & H4 & H5);
    [fold s1; rewrite Hst; split; reflexivity|].
  fold s1 in H1, H3. rewrite Ho in H1. rewrite Hst in H3. cbn [outbox] in H3. rewrite <- app_assoc in H3.
  exists ro, rr. repeat split; assumption.
Qed.

(** a handler that panics instead of leaving in any other way [h] changes
    nothing for the others *)
Theorem C16_others_unaffected_by_panic : forall nmw s evs1 r h evs2,
  let s1 := run nmw s evs1 in
  exists rest_outs rest_replies,
    outs_from nmw s (evs1 ++ Exit r Panic :: evs2)
      = outs_from nmw s evs1 ++ outcome_of nmw s1 (Exit r Panic) :: rest_outs /\
    outs_from nmw s (evs1 ++ Exit r h :: evs2)
      = outs_from nmw s evs1 ++ outcome_of nmw s1 (Exit r h) :: rest_outs /\
    outbox (run nmw s (evs1 ++ Exit r Panic :: evs2))
      = outbox s1 ++ (if r_notify r then [] else [(r_id r, EC_INTERNAL_ERROR)]) ++ rest_replies /\
    outbox (run nmw s (evs1 ++ Exit r h :: evs2))
      = outbox s1 ++ (if r_notify r then [] else [(r_id r, how_code h)]) ++ rest_replies /\
    running (run nmw s (evs1 ++ Exit r Panic :: evs2)) = running (run nmw s (evs1 ++ Exit r h :: evs2)).
Proof.
  intros nmw s evs1 r h evs2 s1.
  destruct (others_unaffected nmw s evs1 (Exit r Panic) [Exit r h] evs2) as (ro & rr & H1 & H2 & H3 & H4 & H5);
    [split; reflexivity|].
  exists ro, rr. rewrite !app_assoc. repeat split; assumption.
Qed.

(** a middleware pipeline has the execution mode of the handler it wraps,
    however many middlewares and however deeply nested; so every blocking
    route is dispatched off the reader and the plain route inline *)
Theorem C16_execution_preserved_through_middleware : forall nmw h r,
  execution (wrap_with_middlewares nmw h) = execution h /\
  execution (HPipeline nmw h) = execution h /\
  execution (dispatched nmw r) = (if is_blocking_route r then OffReader else Inline).
Proof.
  intros nmw h r. split; [apply execution_wrap|]. split; [reflexivity|apply execution_dispatched].
Qed.

(** the reader never waits for a handler: [step] is a total function of the
    current state and the event alone (no [Arrive] is disabled and none waits
    for a future [Exit]); in particular, whatever the number of running
    handlers, an inline request is answered in its own step.  In the model this
    is by construction; for the crate it rests on [try_acquire_owned] being
    non-blocking, on [spawn_blocking] returning at once and on the tokio
    scheduler (the harness measures it: inline traffic is answered while every
    slot is held by a parked handler). *)
Theorem C16_reader_never_waits : forall nmw s r,
  (exists s', step nmw s (Arrive r) = s' /\ cap s' = cap s) /\
  (is_blocking_route (r_route r) = false ->
   step nmw s (Arrive r)
   = mkSt (running s) (cap s) (outbox s ++ (if r_notify r then [] else [(r_id r, EC_OK)]))).
Proof.
  intros nmw s r. split; [exists (step nmw s (Arrive r)); split; reflexivity|].
  intros Hb. exact (proj1 (step_inline nmw s r Hb)).
Qed.

(** the executable oracle (also applied to the implementation's observations)
    accepts the model on every well-formed case *)
Theorem C16_holds : forall c, c16_wf c = true -> ok_C16 c (model_C16 c) = true.
Proof. exact ok_model_C16. Qed.

(** ** the bounded outbound channel between the reader / the blocking threads and the writer
    (Model/OutQueue.v): what the refusals and replies of the theorems above go through *)

(** whatever the producers and the schedule of waiting sends and writer steps, nothing is
    lost or duplicated, and the queue never exceeds its capacity *)
Theorem C16_bounded_queue_conserves : forall (acts : list qact) (s : qst resp),
  forallb waiting_act acts = true -> (length (q_items s) <= q_cap s)%nat ->
  Permutation (all_of (qrun s acts)) (all_of s) /\
  (length (q_items (qrun s acts)) <= q_cap s)%nat.
Proof.
  intros acts s Hw Hb. split; [exact (run_conserves acts s Hw)|exact (proj1 (run_bounded acts s Hb))].
Qed.

(** reader and writer cannot block each other: with a capacity of at least one, as long as
    anything is queued or unsent some waiting action is enabled *)
Theorem C16_bounded_queue_no_deadlock : forall (s : qst resp),
  (0 < q_cap s)%nat -> quiescent s = false ->
  exists a, waiting_act a = true /\ enabled s a = true.
Proof. exact no_deadlock. Qed.

(** a schedule of enabled actions is no longer than the work left, and a maximal one ends
    with every message on the wire exactly once (any number of producers) *)
Theorem C16_bounded_queue_delivers_all : forall (acts : list qact) (s : qst resp),
  (0 < q_cap s)%nat -> forallb waiting_act acts = true -> all_enabled s acts = true ->
  (length acts <= measure s)%nat /\
  ((forall a, waiting_act a = true -> enabled (qrun s acts) a = false) ->
   quiescent (qrun s acts) = true /\ Permutation (q_wire (qrun s acts)) (all_of s)).
Proof. exact delivery. Qed.

(** the reader's own messages (refusals at the cap, inline replies) reach the wire in the
    order of the requests, whatever the capacity and the schedule *)
Theorem C16_reader_replies_delivered_in_order : forall (q : nat) (msgs : list resp) acts,
  (0 < q)%nat -> forallb waiting_act acts = true ->
  all_enabled (mkQ q [msgs] [] []) acts = true ->
  (forall a, waiting_act a = true -> enabled (qrun (mkQ q [msgs] [] []) acts) a = false) ->
  q_wire (qrun (mkQ q [msgs] [] []) acts) = msgs.
Proof.
  intros q msgs acts Hq Hw He Hmax.
  destruct (delivery acts (mkQ q [msgs] [] []) Hq Hw He) as [_ H]. destruct (H Hmax) as [Hqui _].
  rewrite <- (quiescent_all_on_wire _ Hqui). rewrite (run_fifo_single acts (mkQ q [msgs] [] []) msgs Hw (eq_refl [msgs])).
  unfold all_of; cbn [q_wire q_items q_progs concat app]. apply app_nil_r.
Qed.

(** and it has to be the waiting send: with [try_send] a full queue loses a message *)
Theorem C16_try_send_would_lose : exists (s : qst N) acts,
  (0 < q_cap s)%nat /\ quiescent (qrun s acts) = true /\ ~ Permutation (q_wire (qrun s acts)) (all_of s).
Proof.
  exists (mkQ 1%nat [[1; 2]] [] []), [TrySend 0; TrySend 0; Drain].
  split; [cbn; lia|]. split; [vm_compute; reflexivity|].
  intros H. apply Permutation_length in H. vm_compute in H. discriminate.
Qed.

(** ** non-vacuity *)

Definition rq (id : N) (ntf : bool) (rt : route) : req := mkReq id ntf rt.

(** cap 2, one middleware: two admissions, a refused request and a dropped
    notify at the cap, an inline request answered during saturation, a panic, a
    handler error, a re-admission into the freed slots, a refused one again *)
Definition c16_demo : c16case :=
  mkCase (Some 2) 1
    [Arrive (rq 11 false RJsonBlocking); Arrive (rq 12 true RTypedBlocking);
     Arrive (rq 13 false RCtxBlocking); Arrive (rq 14 true RJsonBlocking);
     Arrive (rq 15 false RInline);
     Exit (rq 11 false RJsonBlocking) Panic; Exit (rq 12 true RTypedBlocking) Panic;
     Arrive (rq 16 false RJsonBlocking); Arrive (rq 17 false RTypedBlocking);
     Arrive (rq 18 false RCtxBlocking);
     Exit (rq 17 false RTypedBlocking) (Error 4096); Exit (rq 16 false RJsonBlocking) Return;
     Arrive (rq 19 false RInline)].

Example C16_nonvacuous_wf : c16_wf c16_demo = true.
Proof. vm_compute. reflexivity. Qed.

Example C16_nonvacuous_model :
  model_C16 c16_demo
  = mkObs 2
      [OAdmit; OAdmit; OReject; ODrop; OInlineOk; OPanic; OQuiet; OAdmit; OAdmit; OReject;
       OError 4096; OReturn; OInlineOk]
      [(13, 8); (15, 0); (11, 9); (18, 8); (17, 4096); (16, 0); (19, 0)]
      3 2 true [Inline; OffReader; OffReader; OffReader].
Proof. vm_compute. reflexivity. Qed.

Example C16_nonvacuous_ok : ok_C16 c16_demo (model_C16 c16_demo) = true.
Proof. vm_compute. reflexivity. Qed.

(** the oracle rejects: a third handler admitted at cap 2 (clause 2, and
    clause 1 once the gauge shows it); a slot that a panic did not free (the
    later request refused although a slot must be free); a panic answered
    without the request's id; a refusal that was not reported; a dead
    connection; a blocking route downgraded to inline by the middleware *)
Example C16_oracle_rejects :
  let m := model_C16 c16_demo in
  ok_C16 c16_demo (mkObs 3 (o_outs m) (o_resp m) (o_sat m) (o_pan m) true (o_modes m)) = false /\
  ok_C16 c16_demo
    (mkObs 2 [OAdmit; OAdmit; OAdmit; ODrop; OInlineOk; OPanic; OQuiet; OAdmit; OAdmit; OReject;
              OError 4096; OReturn; OInlineOk] (o_resp m) (o_sat m) (o_pan m) true (o_modes m)) = false /\
  ok_C16 c16_demo
    (mkObs 2 [OAdmit; OAdmit; OReject; ODrop; OInlineOk; OPanic; OQuiet; OAdmit; OReject; OReject;
              OError 4096; OReturn; OInlineOk]
       [(13, 8); (15, 0); (11, 9); (17, 8); (18, 8); (17, 4096); (16, 0); (19, 0)] 4 2 true (o_modes m)) = false /\
  ok_C16 c16_demo
    (mkObs 2 (o_outs m) [(13, 8); (15, 0); (0, 9); (18, 8); (17, 4096); (16, 0); (19, 0)]
       (o_sat m) (o_pan m) true (o_modes m)) = false /\
  ok_C16 c16_demo (mkObs 2 (o_outs m) (o_resp m) 2 (o_pan m) true (o_modes m)) = false /\
  ok_C16 c16_demo (mkObs 2 (o_outs m) (o_resp m) (o_sat m) (o_pan m) false (o_modes m)) = false /\
  ok_C16 c16_demo (mkObs 2 (o_outs m) (o_resp m) (o_sat m) (o_pan m) true [Inline; Inline; OffReader; OffReader]) = false.
Proof. vm_compute. repeat split; reflexivity. Qed.

(** the hypotheses of the step theorems are satisfiable: a saturated state is
    reachable, and there the refused request leaves [running] at the cap *)
Example C16_nonvacuous_saturated :
  let s := run 1 (init (Some 2)) (firstn 2 (c_evs c16_demo)) in
  saturated s = true /\ running s = 2 /\
  running (step 1 s (Arrive (rq 13 false RCtxBlocking))) = 2 /\
  running (step 1 s (Exit (rq 11 false RJsonBlocking) Panic)) = 1 /\
  live_after (Some 2) [] (firstn 10 (c_evs c16_demo)) = [rq 16 false RJsonBlocking; rq 17 false RTypedBlocking] /\
  live_after (Some 2) [] (c_evs c16_demo) = [] /\ running (run 1 (init (Some 2)) (c_evs c16_demo)) = 0.
Proof. vm_compute. repeat split; reflexivity. Qed.

(** ill-formed histories are excluded: an exit without an admission, an exit
    of a refused request, a reused id *)
Example C16_wf_rejects :
  c16_wf (mkCase (Some 1) 0 [Exit (rq 1 false RJsonBlocking) Return]) = false /\
  c16_wf (mkCase (Some 1) 0 [Arrive (rq 1 false RJsonBlocking); Arrive (rq 2 false RJsonBlocking);
                             Exit (rq 2 false RJsonBlocking) Return]) = false /\
  c16_wf (mkCase None 0 [Arrive (rq 1 false RInline); Arrive (rq 1 false RJsonBlocking)]) = false /\
  c16_wf (mkCase (Some 0) 0 []) = false.
Proof. vm_compute. repeat split; reflexivity. Qed.

Check C16_running_le_cap : forall nmw c evs,
  running (run nmw (init (Some c)) evs) <= c /\ maxrun_from nmw (init (Some c)) evs <= c.
Check C16_saturated_reply_immediate : forall nmw s r,
  is_blocking_route (r_route r) = true -> saturated s = true ->
  step nmw s (Arrive r)
  = mkSt (running s) (cap s)
         (outbox s ++ (if r_notify r then [] else [(r_id r, EC_RESOURCE_EXHAUSTED)])) /\
  outcome_of nmw s (Arrive r) = (if r_notify r then ODrop else OReject).
Check C16_every_exit_frees_slot : forall nmw s r h,
  running (step nmw s (Exit r h)) = running s - 1 /\ cap (step nmw s (Exit r h)) = cap s.
Check C16_running_counts_live : forall nmw c evs,
  wf_from c [] [] evs = true ->
  running (run nmw (init c) evs) = N.of_nat (length (live_after c [] evs)).
Check C16_free_slots_admit : forall nmw c rs s,
  cap s = Some c -> running s + N.of_nat (length rs) <= c ->
  forallb (fun r => is_blocking_route (r_route r)) rs = true ->
  outs_from nmw s (map Arrive rs) = map (fun _ => OAdmit) rs /\
  running (run nmw s (map Arrive rs)) = running s + N.of_nat (length rs).
Check C16_panic_reports_internal_error_same_id : forall nmw s r,
  step nmw s (Exit r Panic)
  = mkSt (running s - 1) (cap s)
         (outbox s ++ (if r_notify r then [] else [(r_id r, EC_INTERNAL_ERROR)])).
Check C16_replies_determined_per_request : forall nmw c evs,
  outbox (run nmw (init c) evs) = implied_all evs (outs_from nmw (init c) evs).
Check C16_one_reply_per_request : forall c,
  c16_wf c = true -> NoDup (map fst (o_resp (model_C16 c))).
Check C16_others_unaffected_by_saturated : forall nmw s evs1 r evs2,
  is_blocking_route (r_route r) = true -> saturated (run nmw s evs1) = true ->
  let s1 := run nmw s evs1 in
  let mine := if r_notify r then [] else [(r_id r, EC_RESOURCE_EXHAUSTED)] in
  exists rest_outs rest_replies,
    outs_from nmw s (evs1 ++ Arrive r :: evs2)
      = outs_from nmw s evs1 ++ (if r_notify r then ODrop else OReject) :: rest_outs /\
    outs_from nmw s (evs1 ++ evs2) = outs_from nmw s evs1 ++ rest_outs /\
    outbox (run nmw s (evs1 ++ Arrive r :: evs2)) = outbox s1 ++ mine ++ rest_replies /\
    outbox (run nmw s (evs1 ++ evs2)) = outbox s1 ++ rest_replies /\
    running (run nmw s (evs1 ++ Arrive r :: evs2)) = running (run nmw s (evs1 ++ evs2)).
Check C16_others_unaffected_by_panic : forall nmw s evs1 r h evs2,
  let s1 := run nmw s evs1 in
  exists rest_outs rest_replies,
    outs_from nmw s (evs1 ++ Exit r Panic :: evs2)
      = outs_from nmw s evs1 ++ outcome_of nmw s1 (Exit r Panic) :: rest_outs /\
    outs_from nmw s (evs1 ++ Exit r h :: evs2)
      = outs_from nmw s evs1 ++ outcome_of nmw s1 (Exit r h) :: rest_outs /\
    outbox (run nmw s (evs1 ++ Exit r Panic :: evs2))
      = outbox s1 ++ (if r_notify r then [] else [(r_id r, EC_INTERNAL_ERROR)]) ++ rest_replies /\
    outbox (run nmw s (evs1 ++ Exit r h :: evs2))
      = outbox s1 ++ (if r_notify r then [] else [(r_id r, how_code h)]) ++ rest_replies /\
    running (run nmw s (evs1 ++ Exit r Panic :: evs2)) = running (run nmw s (evs1 ++ Exit r h :: evs2)).
Check C16_execution_preserved_through_middleware : forall nmw h r,
  execution (wrap_with_middlewares nmw h) = execution h /\
  execution (HPipeline nmw h) = execution h /\
  execution (dispatched nmw r) = (if is_blocking_route r then OffReader else Inline).
Check C16_reader_never_waits : forall nmw s r,
  (exists s', step nmw s (Arrive r) = s' /\ cap s' = cap s) /\
  (is_blocking_route (r_route r) = false ->
   step nmw s (Arrive r)
   = mkSt (running s) (cap s) (outbox s ++ (if r_notify r then [] else [(r_id r, EC_OK)]))).
Check C16_holds : forall c, c16_wf c = true -> ok_C16 c (model_C16 c) = true.
Check C16_bounded_queue_conserves : forall (acts : list qact) (s : qst resp),
  forallb waiting_act acts = true -> (length (q_items s) <= q_cap s)%nat ->
  Permutation (all_of (qrun s acts)) (all_of s) /\
  (length (q_items (qrun s acts)) <= q_cap s)%nat.
Check C16_bounded_queue_no_deadlock : forall (s : qst resp),
  (0 < q_cap s)%nat -> quiescent s = false ->
  exists a, waiting_act a = true /\ enabled s a = true.
Check C16_bounded_queue_delivers_all : forall (acts : list qact) (s : qst resp),
  (0 < q_cap s)%nat -> forallb waiting_act acts = true -> all_enabled s acts = true ->
  (length acts <= measure s)%nat /\
  ((forall a, waiting_act a = true -> enabled (qrun s acts) a = false) ->
   quiescent (qrun s acts) = true /\ Permutation (q_wire (qrun s acts)) (all_of s)).
Check C16_reader_replies_delivered_in_order : forall (q : nat) (msgs : list resp) acts,
  (0 < q)%nat -> forallb waiting_act acts = true ->
  all_enabled (mkQ q [msgs] [] []) acts = true ->
  (forall a, waiting_act a = true -> enabled (qrun (mkQ q [msgs] [] []) acts) a = false) ->
  q_wire (qrun (mkQ q [msgs] [] []) acts) = msgs.
Check C16_try_send_would_lose : exists (s : qst N) acts,
  (0 < q_cap s)%nat /\ quiescent (qrun s acts) = true /\ ~ Permutation (q_wire (qrun s acts)) (all_of s).

(** the codes are the crate's: ResourceExhausted = 8, InternalError = 9 *)
Check (eq_refl : (EC_OK, EC_RESOURCE_EXHAUSTED, EC_INTERNAL_ERROR) = (0, 8, 9)).

Print Assumptions C16_running_le_cap.
Print Assumptions C16_saturated_reply_immediate.
Print Assumptions C16_every_exit_frees_slot.
Print Assumptions C16_running_counts_live.
Print Assumptions C16_free_slots_admit.
Print Assumptions C16_panic_reports_internal_error_same_id.
Print Assumptions C16_replies_determined_per_request.
Print Assumptions C16_one_reply_per_request.
Print Assumptions C16_others_unaffected_by_saturated.
Print Assumptions C16_others_unaffected_by_panic.
Print Assumptions C16_execution_preserved_through_middleware.
Print Assumptions C16_reader_never_waits.
Print Assumptions C16_holds.
Print Assumptions C16_bounded_queue_conserves.
Print Assumptions C16_bounded_queue_no_deadlock.
Print Assumptions C16_bounded_queue_delivers_all.
Print Assumptions C16_reader_replies_delivered_in_order.
Print Assumptions C16_try_send_would_lose.

(** constants of the model are the ones re-read from the Rust source on this run *)
Theorem C16_source_tables :
  agrees src_ErrorCode_Ok OffReader.EC_OK /\ agrees src_ErrorCode_ResourceExhausted OffReader.EC_RESOURCE_EXHAUSTED /\
  agrees src_ErrorCode_InternalError OffReader.EC_INTERNAL_ERROR.
Proof. exact c16_error_codes_agree. Qed.
Check C16_source_tables :
  agrees src_ErrorCode_Ok OffReader.EC_OK /\ agrees src_ErrorCode_ResourceExhausted OffReader.EC_RESOURCE_EXHAUSTED /\
  agrees src_ErrorCode_InternalError OffReader.EC_INTERNAL_ERROR.
Print Assumptions C16_source_tables.

(** ** the admission decision is the one re-translated from the Rust source on this run (bin/rs2v,
    sinks-and-sessions mode: Gen/OffReaderGen.v, Proofs/OffReaderGenAgree.v): the synchronous part
    of spawn_off_reader, up to the call of tokio::task::spawn_blocking (the closure it starts -- the
    handler run, the panic guard, the queued response, the release of the permit -- is not
    translated; the correspondence run carries that part).  [held] permits of the semaphore
    ([sem] = [Some cap], or [None] when there is none) are out, [reports] is what the error hooks
    were handed, [outbox] the outbound channel, [spawned] the blocking tasks started; the value is
    the reader's keep-reading flag.  The rejection is built by the rendering of
    create_error_response_like (Gen/ErrMsgGen.v, tied to the model's [build] by
    C17_source_translation_messages); the premise excludes a query so long that the frame length
    would not fit 64 bits. *)
From RepeV Require Import Base.GenOutboundPrelude Gen.ErrMsgGen Gen.OffReaderGen Proofs.OffReaderGenAgree.

Theorem C16_source_translation :
  match gen_spawn_off_reader with
  | Some f => forall reports held outbox spawned sem request notify,
      HEADER_SIZE + lenN (m_query request) + lenN saturated_text < two64 ->
      f reports held outbox spawned sem request notify =
      if saturated (mkSt held sem []) then
        if notify then Ok (true, reports ++ [R_Saturation], held, outbox, spawned)
        else Ok (res_is_ok (fst (oc_send outbox (rejection request))), reports ++ [R_Saturation], held,
                 snd (oc_send outbox (rejection request)), spawned)
      else Ok (true, reports, match sem with Some _ => held + 1 | None => held end, outbox, spawned + 1)
  | None => True
  end.
Proof. exact spawn_off_reader_agrees. Qed.

Theorem C16_source_translation_model :
  (forall nmw s r, execution (dispatched nmw (r_route r)) = OffReader ->
     emit nmw s (Arrive r) = (if saturated s then if r_notify r then [] else [(r_id r, EC_RESOURCE_EXHAUSTED)] else []) /\
     next_running nmw s (Arrive r) = (if saturated s then running s else running s + 1)) /\
  (forall request, reply_of (rejection request) = (h_id (m_hdr request), EC_RESOURCE_EXHAUSTED)) /\
  (forall c m, oc_left c = None -> oc_send c m = (ROk tt, mkOut (oc_sent c ++ [m]) None)).
Proof.
  split; [exact arrive_offreader_model|split; [exact reply_of_rejection|]].
  intros c m H. unfold oc_send. rewrite H. reflexivity.
Qed.

Check C16_source_translation :
  match gen_spawn_off_reader with
  | Some f => forall reports held outbox spawned sem request notify,
      HEADER_SIZE + lenN (m_query request) + lenN saturated_text < two64 ->
      f reports held outbox spawned sem request notify =
      if saturated (mkSt held sem []) then
        if notify then Ok (true, reports ++ [R_Saturation], held, outbox, spawned)
        else Ok (res_is_ok (fst (oc_send outbox (rejection request))), reports ++ [R_Saturation], held,
                 snd (oc_send outbox (rejection request)), spawned)
      else Ok (true, reports, match sem with Some _ => held + 1 | None => held end, outbox, spawned + 1)
  | None => True
  end.
Check C16_source_translation_model :
  (forall nmw s r, execution (dispatched nmw (r_route r)) = OffReader ->
     emit nmw s (Arrive r) = (if saturated s then if r_notify r then [] else [(r_id r, EC_RESOURCE_EXHAUSTED)] else []) /\
     next_running nmw s (Arrive r) = (if saturated s then running s else running s + 1)) /\
  (forall request, reply_of (rejection request) = (h_id (m_hdr request), EC_RESOURCE_EXHAUSTED)) /\
  (forall c m, oc_left c = None -> oc_send c m = (ROk tt, mkOut (oc_sent c ++ [m]) None)).

(** the definitions used above are the plain ones *)
Check (eq_refl : rejection = fun request => error_response_like request ERRC_ResourceExhausted saturated_text).
Check (eq_refl : saturated_text = [111; 102; 102; 45; 114; 101; 97; 100; 101; 114; 32; 100; 105; 115; 112; 97; 116; 99; 104; 32; 108; 105; 109; 105; 116; 32;
   114; 101; 97; 99; 104; 101; 100; 59; 32; 114; 101; 116; 114; 121]%N).
Check (eq_refl : reply_of = fun m => (h_id (m_hdr m), h_ec (m_hdr m))).
Check (eq_refl : ERRC_ResourceExhausted = EC_RESOURCE_EXHAUSTED).
Check (eq_refl : sem_try_acquire = fun held cap => if (held <? cap)%N then (ROk tt, (held + 1)%N) else (RErr tt, held)).

Print Assumptions C16_source_translation.
Print Assumptions C16_source_translation_model.
