(** C19 — Fleet retry loop: bounded attempts, retries only after transport-level
    failures, the first reply is reported, a dead cached client is dropped (the
    node is never wedged), tag filtering of broadcasts.
    This file contains only statements (each derived in a line or two from the
    lemma of Proofs/ it is an instance of), their pins and their assumptions. *)
From RepeV Require Import Model.Fleet Gen.Tables Proofs.TablesC01 Proofs.FleetProofs.

(** [is_retryable_error] of src/fleet.rs and src/async_fleet.rs, re-read on
    every run, is the table of the model *)
Theorem C19_source_tables :
  agrees src_fleet_retryable retry_table /\ agrees src_async_fleet_retryable retry_table.
Proof. exact source_tables_agree. Qed.

(** the code's loop, driven by the retryable table, is the specification,
    driven by the transport / reply classification *)
Theorem C19_loop_is_spec : forall max script c, call max script c = spec_call max script c.
Proof. exact call_is_spec. Qed.

Theorem C19_attempts_le_max : forall max script c, co_attempts (call max script c) <= N.of_nat max.
Proof. exact attempts_le_max. Qed.

Theorem C19_at_least_one_attempt : forall max script c,
  (1 <= max)%nat -> 1 <= co_attempts (call max script c).
Proof. intros max script c. apply call_counts. Qed.

(** every attempt but the last met a transport-level failure *)
Theorem C19_retries_only_after_transport : forall max script c,
  let rs := attempt_results max script c in
  N.of_nat (length rs) = co_attempts (spec_call max script c) /\
  Forall (fun r => classify r = Transport) (removelast rs).
Proof. exact retries_only_after_transport. Qed.

(** the loop ends at the first reply or when the attempts are used up, and
    reports what the last attempt met *)
Theorem C19_stops_at_first_reply_and_reports_it : forall max script c,
  (1 <= max)%nat ->
  let rs := attempt_results max script c in
  co_result (spec_call max script c) = last rs (RErr KNotConnected) /\
  (classify (last rs (RErr KNotConnected)) <> Transport \/ length rs = max).
Proof. intros max script c _. exact (stops_at_first_reply max script c). Qed.

(** against a healthy node a value comes back within two calls, whatever state
    the cache was left in *)
Theorem C19_never_wedged : forall max c,
  (1 <= max)%nat ->
  let o1 := call max [] c in
  is_value (co_result o1) = true \/ is_value (co_result (call max [] (co_cache o1))) = true.
Proof. exact never_wedged. Qed.

Theorem C19_never_wedged_after_any_script : forall max script c,
  (1 <= max)%nat ->
  let o := call max script c in
  let o1 := call max [] (co_cache o) in
  is_value (co_result o1) = true \/ is_value (co_result (call max [] (co_cache o1))) = true.
Proof. intros max script c H. cbv zeta. exact (never_wedged max _ H). Qed.

(** the repaired defect: with the table that does not list BrokenPipe a dead
    cached client is never dropped *)
Theorem C19_old_table_wedges : forall max n,
  (1 <= max)%nat ->
  Forall (fun '(a, r) => r = RErr KBrokenPipe) (follow_ups old_table max n [] CDead).
Proof. exact old_table_wedges. Qed.

(** a broadcast addresses exactly the nodes carrying all requested tags, one
    decision per node *)
Theorem C19_broadcast_targets : forall node_tags want i t,
  nth_error node_tags i = Some t ->
  nth_error (addressed node_tags want) i = Some (N.land t want =? want).
Proof.
  intros node_tags want i t H. unfold addressed.
  exact (map_nth_error (fun t => N.land t want =? want) i node_tags H).
Qed.

Theorem C19_broadcast_one_per_node : forall node_tags want,
  length (addressed node_tags want) = length node_tags.
Proof. intros node_tags want. unfold addressed. apply map_length. Qed.

(** the executable oracle (also applied to the implementation's observations)
    accepts the model on every scenario *)
Theorem C19_holds : forall max script n,
  (1 <= max)%nat -> ok_C19 max script (model_C19 max script n) = true.
Proof. exact ok_model_C19. Qed.

(** ** non-vacuity *)

(** the tables are present and are the model's *)
Example C19_nonvacuous_tables :
  src_fleet_retryable = Some retry_table /\ src_async_fleet_retryable = Some retry_table /\
  old_table <> retry_table /\ retryable_with old_table KBrokenPipe = false /\
  retryable KBrokenPipe = true /\ retryable KInvalidSpec = false /\ retryable KServerError = false.
Proof. vm_compute. repeat split; try reflexivity. discriminate. Qed.

(** two transport failures, then an application error: three attempts, the
    reply is reported, the connection is kept *)
Example C19_nonvacuous_call :
  call 3 [Refused; AccClosed; AppError; Silent] CNone
  = mkCallOut 3 (RErr KServerError) CLive [Silent] /\
  attempt_results 3 [Refused; AccClosed; AppError; Silent] CNone
  = [RErr KRefused; RErr KEof; RErr KServerError] /\
  call 2 [Refused; AccClosed; AppError] CNone = mkCallOut 2 (RErr KEof) CNone [AppError] /\
  call 3 [Malformed; Success] CNone = mkCallOut 1 (RErr KInvalidSpec) CDead [Success].
Proof. vm_compute. repeat split; reflexivity. Qed.

(** the dead-client state and one attempt per call: the first call fails with
    BrokenPipe and drops the client, the second succeeds *)
Example C19_nonvacuous_dead_client :
  call 1 [] CDead = mkCallOut 1 (RErr KBrokenPipe) CNone [] /\
  call 1 [] CNone = mkCallOut 1 RValue CLive [] /\
  call 2 [] CDead = mkCallOut 2 RValue CLive [].
Proof. vm_compute. repeat split; reflexivity. Qed.

(** the dead state is reachable with the old table from a clean start: the
    node closes the idle connection of a live client (or sends a malformed
    reply); from then on every call fails, where the repaired table recovers *)
Example C19_old_table_dead_reachable :
  co_cache (retry_loop old_table 3 [Malformed] CNone 0 (RErr KNotConnected)) = CDead /\
  co_cache (retry_loop old_table 3 [ClosedIdle] CLive 0 (RErr KNotConnected)) = CDead /\
  follow_ups old_table 3 4 [Success; ClosedIdle] CNone
  = [(1, RValue); (1, RErr KBrokenPipe); (1, RErr KBrokenPipe); (1, RErr KBrokenPipe)] /\
  follow_ups retry_table 3 4 [Success; ClosedIdle] CNone
  = [(1, RValue); (2, RValue); (1, RValue); (1, RValue)] /\
  follow_ups retry_table 1 4 [Success; ClosedIdle] CNone
  = [(1, RValue); (1, RErr KBrokenPipe); (1, RValue); (1, RValue)].
Proof. vm_compute. repeat split; reflexivity. Qed.

(** the oracle is not trivially true: it rejects the behaviour of the old
    table, a call exceeding [max] attempts, and a retry after a reply *)
Example C19_oracle_rejects :
  let script := [Success; ClosedIdle] in
  let o := retry_loop old_table 3 script CNone 0 (RErr KNotConnected) in
  ok_C19 3 script (model_C19 3 script 4) = true /\
  ok_C19 3 script
    (mkC19Obs (co_attempts o) (co_result o) (is_connected (co_cache o))
              (follow_ups old_table 3 4 (co_script o) (co_cache o))) = false /\
  ok_C19 3 [AppError] (mkC19Obs 2 RValue true []) = false /\
  ok_C19 2 [Refused; Refused; Refused] (mkC19Obs 3 RValue true []) = false.
Proof. vm_compute. repeat split; reflexivity. Qed.

Example C19_nonvacuous_model :
  model_C19 3 [Refused; AccClosed; Success] 2 = mkC19Obs 3 RValue true [(1, RValue); (1, RValue)] /\
  model_C19 1 [Success; ClosedIdle] 3
  = mkC19Obs 1 RValue true [(1, RErr KBrokenPipe); (1, RValue); (1, RValue)].
Proof. vm_compute. split; reflexivity. Qed.

Example C19_nonvacuous_broadcast :
  addressed [3; 1; 2; 7; 0] 3 = [true; false; false; true; false] /\
  addressed [3; 1; 2; 7; 0] 0 = [true; true; true; true; true].
Proof. vm_compute. split; reflexivity. Qed.

Check C19_source_tables :
  agrees src_fleet_retryable retry_table /\ agrees src_async_fleet_retryable retry_table.
Check C19_loop_is_spec : forall max script c, call max script c = spec_call max script c.
Check C19_attempts_le_max : forall max script c, co_attempts (call max script c) <= N.of_nat max.
Check C19_at_least_one_attempt : forall max script c,
  (1 <= max)%nat -> 1 <= co_attempts (call max script c).
Check C19_retries_only_after_transport : forall max script c,
  let rs := attempt_results max script c in
  N.of_nat (length rs) = co_attempts (spec_call max script c) /\
  Forall (fun r => classify r = Transport) (removelast rs).
Check C19_stops_at_first_reply_and_reports_it : forall max script c,
  (1 <= max)%nat ->
  let rs := attempt_results max script c in
  co_result (spec_call max script c) = last rs (RErr KNotConnected) /\
  (classify (last rs (RErr KNotConnected)) <> Transport \/ length rs = max).
Check C19_never_wedged : forall max c,
  (1 <= max)%nat ->
  let o1 := call max [] c in
  is_value (co_result o1) = true \/ is_value (co_result (call max [] (co_cache o1))) = true.
Check C19_never_wedged_after_any_script : forall max script c,
  (1 <= max)%nat ->
  let o := call max script c in
  let o1 := call max [] (co_cache o) in
  is_value (co_result o1) = true \/ is_value (co_result (call max [] (co_cache o1))) = true.
Check C19_old_table_wedges : forall max n,
  (1 <= max)%nat ->
  Forall (fun '(a, r) => r = RErr KBrokenPipe) (follow_ups old_table max n [] CDead).
Check C19_broadcast_targets : forall node_tags want i t,
  nth_error node_tags i = Some t ->
  nth_error (addressed node_tags want) i = Some (N.land t want =? want).
Check C19_broadcast_one_per_node : forall node_tags want,
  length (addressed node_tags want) = length node_tags.
Check C19_holds : forall max script n,
  (1 <= max)%nat -> ok_C19 max script (model_C19 max script n) = true.

(** the definitions the statements above rely on, pinned *)
Check (eq_refl : old_table = [true; true; true; true; true; true; false; true; true]).
Check (eq_refl : attempt_results = fix go (fuel : nat) (script : list behaviour) (c : cache) : list result :=
  match fuel with
  | O => []
  | S fuel' =>
      let '(b, script') := next_b script in
      let '(r, _) := attempt b c in
      match classify r with
      | Transport => r :: go fuel' script' CNone
      | Reply | MalformedReply => [r]
      end
  end).
Check (eq_refl : @agrees = fun A (src : option A) (m : A) => match src with Some x => x = m | None => True end).

Print Assumptions C19_source_tables.
Print Assumptions C19_loop_is_spec.
Print Assumptions C19_attempts_le_max.
Print Assumptions C19_at_least_one_attempt.
Print Assumptions C19_retries_only_after_transport.
Print Assumptions C19_stops_at_first_reply_and_reports_it.
Print Assumptions C19_never_wedged.
Print Assumptions C19_never_wedged_after_any_script.
Print Assumptions C19_old_table_wedges.
Print Assumptions C19_broadcast_targets.
Print Assumptions C19_broadcast_one_per_node.
Print Assumptions C19_holds.

(** ** tie to the source text: the bodies of the four retry functions
    (call_json_with_retry, call_message_with_retry of src/fleet.rs and of
    src/async_fleet.rs), re-translated into Gallina by bin/rs2v on every run
    (Gen/FleetGen.v), are all the ONE model loop [retry_loop]: same attempts
    made, cached client, remaining script, reported result, and one sleep after
    every retryable failure that was not the last allowed attempt
    ([retry_sleeps]).  The closure / async block that performs one attempt is
    not translated: it is the environment step that assumption R8 describes.
    For [max = 0] (rejected by validate_fleet_options) the code reports neither
    value nor error, where the model has its placeholder.  A function that could
    not be translated is [None] and its clause is [True] (reported by rs2v). *)
From RepeV Require Import Base.GenFleetPrelude Gen.FleetGen Proofs.FleetGenAgree.

Theorem C19_source_translation : forall g,
  In g [gen_fleet_call_json; gen_fleet_call_message; gen_afleet_call_json; gen_afleet_call_message] ->
  match g with
  | Some f => forall tbl max script c,
      let o := f tbl (N.of_nat max) script c in
      let m := retry_loop tbl max script c 0 (RErr KNotConnected) in
      fo_made o = co_attempts m /\ fo_cache o = co_cache m /\ fo_script o = co_script m /\
      fo_sleeps o = retry_sleeps tbl max script c /\
      ((1 <= max)%nat -> fo_result o = rr_of (co_result m)) /\
      (max = 0%nat -> fo_result o = RRError None)
  | None => True
  end.
Proof.
  intros g Hg. destruct c19_source_translation as (H1 & H2 & H3 & H4).
  destruct Hg as [<-|[<-|[<-|[<-|[]]]]]; assumption.
Qed.

Check C19_source_translation : forall g,
  In g [gen_fleet_call_json; gen_fleet_call_message; gen_afleet_call_json; gen_afleet_call_message] ->
  match g with
  | Some f => forall tbl max script c,
      let o := f tbl (N.of_nat max) script c in
      let m := retry_loop tbl max script c 0 (RErr KNotConnected) in
      fo_made o = co_attempts m /\ fo_cache o = co_cache m /\ fo_script o = co_script m /\
      fo_sleeps o = retry_sleeps tbl max script c /\
      ((1 <= max)%nat -> fo_result o = rr_of (co_result m)) /\
      (max = 0%nat -> fo_result o = RRError None)
  | None => True
  end.

Print Assumptions C19_source_translation.
