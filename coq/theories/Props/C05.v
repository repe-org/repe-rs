(** C05 — Bytes put on a connection are always whole frames, never torn or
    interleaved; an interrupted write is never followed by further frames.

    What is proved is about the lock structure and the after-interruption
    policy of the six endpoints (Model/WriterSM.v, read off the code after
    commits f4e6dd8, d088b00, ce235a8).  Where exactly an interrupted write is
    cut depends on kernel buffering: the model quantifies over every cut
    position, the harness exhibits real ones.
    This file contains only statements (each derived in a few lines from the
    lemmas of Proofs/WriterSMProofs.v, or a witness computed by [vm_compute]),
    their pins and their assumptions. *)
From RepeV Require Import Model.WriterSM Proofs.HeaderProofs Proofs.MessageProofs Proofs.WriterSMProofs.

(** for every schedule of locked writers (whose turn it is, and where a turn is
    interrupted) the frames on the wire are, in lock-acquisition order, a
    subsequence of the turns; all of them whole except possibly the last *)
Theorem C05_no_interleave : forall e lens sched,
  let its := picks lens [] sched in
  let wire := w_wire (fst (run after_interrupt e w0 its)) in
  subseq (map seg_key wire) (map item_key its) /\
  exists whole torn,
    wire = whole ++ torn /\ forallb seg_whole whole = true /\
    (torn = [] \/ exists t, torn = [t] /\ seg_whole t = false).
Proof.
  intros e lens sched its wire. split.
  - destruct (run_keys after_interrupt e its w0) as (ext & E & Hsub). unfold wire. rewrite E. exact Hsub.
  - apply wtt_shape. apply J_wtt. apply J_run. exact J_w0.
Qed.

(** the bytes: whole frames' bytes one after the other, then the torn prefix *)
Theorem C05_wire_bytes : forall fr whole torn,
  render fr (whole ++ torn) = concat (map (seg_bytes fr) whole) ++ render fr torn.
Proof. intros fr whole torn. apply render_app. Qed.

(** with the policy [Close] (every byte-stream endpoint, after the repairs)
    nothing follows an interrupted write: the connection is failed, every later
    write attempt is refused and the wire does not change *)
Theorem C05_torn_is_last : forall e s w sq len k its,
  atomic_send e = false -> w_broken s = false ->
  let s1 := fst (turn after_interrupt e s (mkItem w sq len (Cut k))) in
  w_broken s1 = true /\ run after_interrupt e s1 its = (s1, repeat false (length its)).
Proof.
  intros e s w sq len k its Ha Hb. split; [exact (cut_breaks e s w sq len k Ha Hb)|].
  exact (torn_is_last e s w sq len k its Ha Hb).
Qed.

(** a peer that parses by declared lengths only recovers exactly the whole
    frames, in order, and is left with the torn prefix (or nothing) *)
Theorem C05_resync : forall e lens sched fr,
  forallb (forallb (fun l => 48 <=? l)) lens = true -> frames_match lens fr ->
  let wire := w_wire (fst (run after_interrupt e w0 (picks lens [] sched))) in
  exists whole torn,
    wire = whole ++ torn /\ forallb seg_whole whole = true /\
    (torn = [] \/ exists t, torn = [t] /\ sg_k t < sg_len t) /\
    parse_frames (render fr wire) = (map (seg_frame fr) whole, render fr torn).
Proof.
  intros e lens sched fr Hlens Hm wire. apply (resync_wire lens fr wire Hm).
  - apply run_segs_fine; [exact Hlens|apply picks_intended|reflexivity].
  - apply J_wtt. apply J_run. exact J_w0.
Qed.

(** the frames of the message model (C01: header, query, body chunks of
    [write_message]) are well-formed for that reader *)
Theorem C05_frames_wellformed : forall m, msg_ok m = true -> wf_frame (frame_bytes m).
Proof. exact frame_bytes_wf. Qed.

(** the mutex: when every writer is a program (lock; write chunk; ...; flush;
    unlock) and the scheduler interleaves single steps, the bytes on the
    connection are those of whole turns in the order the critical sections
    were entered — plus, while a writer is inside, a prefix of its frame *)
Theorem C05_mutex_serialises : forall pol e queues sched fr,
  atomic_send e = false ->
  let s := frun true pol e (f0 queues) sched in
  f_holder s = None ->
  frender fr (f_wire s) = render fr (w_wire (fst (run pol e w0 (f_log s)))) /\
  f_broken s = w_broken (fst (run pol e w0 (f_log s))).
Proof.
  intros pol e queues sched fr Ha. cbv zeta. intros Hh.
  destruct (frun_inv pol e fr Ha sched (f0 queues) (FInv_f0 pol e fr queues))
    as [closed [(_ & _ & Hlog & Hb & Hbytes)|(h & j & rem & done & Hh' & _)]]; [|congruence].
  rewrite Hlog. split; [exact Hbytes|exact Hb].
Qed.

Theorem C05_mutex_serialises_open : forall pol e queues sched fr,
  atomic_send e = false ->
  let s := frun true pol e (f0 queues) sched in
  forall h, f_holder s = Some h ->
  exists closed it done,
    f_log s = closed ++ [it] /\ it_w it = h /\ done <= it_len it /\
    frender fr (f_wire s)
    = render fr (w_wire (fst (run pol e w0 closed))) ++ firstn (N.to_nat done) (fr h (it_seq it)).
Proof.
  intros pol e queues sched fr Ha. cbv zeta. intros h Hh.
  destruct (frun_inv pol e fr Ha sched (f0 queues) (FInv_f0 pol e fr queues))
    as [closed [(Hh' & _)|(h' & j & rem & done & Hh' & _ & Hlog & Hsum & _ & _ & _ & Hbytes)]]; [congruence|].
  assert (h' = h) as -> by congruence.
  exists closed, (job_item h j), done. split; [exact Hlog|]. split; [reflexivity|].
  split; [cbn [job_item it_len]; rewrite <- Hsum; apply N.le_add_r|exact Hbytes].
Qed.

(** the executable oracle accepts the model on every well-formed case *)
Theorem C05_holds : forall c, c05_wf c = true -> ok_C05 c (model_C05 c) = true.
Proof. exact ok_model_C05. Qed.

(** ** refuted: the endpoints as they were before the repairs *)

(** with the legacy policy (async server, blocking client, async client:
    [Continue]) there is a schedule in which a complete frame follows a torn
    one; the oracle rejects it, and the length-driven reader recovers nothing
    although a whole frame was written *)
Theorem C05_legacy_torn_refuted :
  exists e lens sched,
    let c := mkCase e lens 1 sched in
    c05_wf c = true /\
    o_wire (model_with legacy_policy c) = [mkSeg 0 0 50 10; mkSeg 0 1 50 50] /\
    ok_C05 c (model_with legacy_policy c) = false /\
    frames_match lens c05_fr /\
    parse_frames (render c05_fr (o_wire (model_with legacy_policy c)))
    = ([], render c05_fr (o_wire (model_with legacy_policy c))) /\
    o_wire (model_C05 c) = [mkSeg 0 0 50 10].
Proof.
  exists EAsyncServer, [[50; 50]], [(0, Cut 10); (0, Whole)]. cbv zeta.
  do 3 (split; [vm_compute; reflexivity|]). split; [exact c05_fr_match|].
  split; vm_compute; reflexivity.
Qed.

Theorem C05_legacy_blocking_client_refuted :
  ok_C05 (mkCase EClient [[50; 50]] 1 [(0, Cut 10); (0, Whole)])
         (model_with legacy_policy (mkCase EClient [[50; 50]] 1 [(0, Cut 10); (0, Whole)])) = false.
Proof. vm_compute. reflexivity. Qed.

Theorem C05_legacy_async_client_refuted :
  ok_C05 (mkCase EAsyncClient [[50]; [50]] 1 [(0, Cut 49); (1, Whole)])
         (model_with legacy_policy (mkCase EAsyncClient [[50]; [50]] 1 [(0, Cut 49); (1, Whole)])) = false.
Proof. vm_compute. reflexivity. Qed.

(** without the mutex the same writer programs interleave their chunks; with
    it the same step schedule serialises them *)
Theorem C05_unlocked_interleave_refuted :
  let queues := [(0, [mkJob 0 [48; 2] Whole]); (1, [mkJob 0 [48; 2] Whole])] in
  let sched := [0; 1; 0; 1; 0; 1; 0; 1] in
  f_wire (frun false after_interrupt EClient (f0 queues) sched)
  = [mkRun 0 0 50 0 48; mkRun 1 0 50 0 48; mkRun 0 0 50 48 2; mkRun 1 0 50 48 2] /\
  f_wire (frun true after_interrupt EClient (f0 queues) sched)
  = [mkRun 0 0 50 0 48; mkRun 0 0 50 48 2].
Proof. vm_compute. split; reflexivity. Qed.

(** ** non-vacuity *)

(** three writers and a probe; writer 1's second frame is cut after 3000 of
    its 5000 bytes: the frames before it are whole, nothing follows, every
    later attempt (writer 0's second frame, writer 2, the probe) is refused *)
Definition c05_case : case :=
  mkCase EClient [[100; 200]; [48; 5000]; [64]; [70]] 3
         [(1, Whole); (0, Whole); (1, Cut 3000); (0, Whole); (2, Whole); (3, Whole)].

Example C05_nonvacuous_wf : c05_wf c05_case = true.
Proof. vm_compute. reflexivity. Qed.

Example C05_nonvacuous_model :
  model_C05 c05_case
  = mkObs [mkSeg 1 0 48 48; mkSeg 0 0 100 100; mkSeg 1 1 5000 3000] 0
          [(1, 0, true); (0, 0, true); (1, 1, false); (0, 1, false); (2, 0, false); (3, 0, false)]
          true.
Proof. vm_compute. reflexivity. Qed.

(** the same schedule on a WebSocket endpoint: the abandoned send still
    delivers the whole message, and the connection carries on *)
Example C05_nonvacuous_atomic :
  o_wire (model_C05 (mkCase EWsClient (c_lens c05_case) 3 (c_sched c05_case)))
  = [mkSeg 1 0 48 48; mkSeg 0 0 100 100; mkSeg 1 1 5000 5000; mkSeg 0 1 200 200; mkSeg 2 0 64 64;
     mkSeg 3 0 70 70].
Proof. vm_compute. reflexivity. Qed.

(** the oracle rejects: a frame after the torn one; bytes it cannot attribute
    (interleaving); a probe that succeeded after a torn frame; a duplicated
    frame; a writer's frames out of order; a successful call whose frame is
    not on the wire; a server that did not close after a torn frame *)
Example C05_oracle_rejects :
  let good := model_C05 c05_case in
  ok_C05 c05_case good = true /\
  ok_C05 c05_case (mkObs (o_wire good ++ [mkSeg 2 0 64 64]) 0 (o_res good) true) = false /\
  ok_C05 c05_case (mkObs (o_wire good) 17 (o_res good) true) = false /\
  ok_C05 c05_case (mkObs (o_wire good) 0 [(3, 0, true)] true) = false /\
  ok_C05 c05_case (mkObs [mkSeg 0 0 100 100; mkSeg 0 0 100 100] 0 [] false) = false /\
  ok_C05 c05_case (mkObs [mkSeg 0 1 200 200; mkSeg 0 0 100 100] 0 [] false) = false /\
  ok_C05 c05_case (mkObs [mkSeg 0 0 100 100] 0 [(2, 0, true)] false) = false /\
  ok_C05 (mkCase EAsyncServer [[100; 200]] 1 []) (mkObs [mkSeg 0 0 100 60] 0 [] false) = false /\
  ok_C05 c05_case (mkObs [mkSeg 0 0 101 101] 0 [] false) = false.
Proof. vm_compute. repeat split; reflexivity. Qed.

(** the reader on real bytes: two whole model frames and 20 bytes of a third *)
Example C05_nonvacuous_parse :
  parse_frames (c05_fr 0 0 ++ c05_fr 0 1 ++ firstn 20 (c05_fr 0 2))
  = ([c05_fr 0 0; c05_fr 0 1], firstn 20 (c05_fr 0 2)).
Proof. vm_compute. reflexivity. Qed.

(** a step schedule in which writer 0 is interrupted inside its second chunk
    while writer 1 waits for the mutex: writer 1 is then refused *)
Example C05_nonvacuous_fine :
  let queues := [(0, [mkJob 0 [48; 10] (Cut 50)]); (1, [mkJob 0 [48; 2] Whole])] in
  let s := frun true after_interrupt EAsyncClient (f0 queues) [0; 1; 0; 1; 0; 1; 1] in
  f_wire s = [mkRun 0 0 58 0 48; mkRun 0 0 58 48 2] /\ f_holder s = None /\ f_broken s = true /\
  f_log s = [mkItem 0 0 58 (Cut 50)] /\
  w_wire (fst (run after_interrupt EAsyncClient w0 (f_log s))) = [mkSeg 0 0 58 50].
Proof. vm_compute. repeat split; reflexivity. Qed.

Check C05_no_interleave : forall e lens sched,
  let its := picks lens [] sched in
  let wire := w_wire (fst (run after_interrupt e w0 its)) in
  subseq (map seg_key wire) (map item_key its) /\
  exists whole torn,
    wire = whole ++ torn /\ forallb seg_whole whole = true /\
    (torn = [] \/ exists t, torn = [t] /\ seg_whole t = false).
Check C05_wire_bytes : forall fr whole torn,
  render fr (whole ++ torn) = concat (map (seg_bytes fr) whole) ++ render fr torn.
Check C05_torn_is_last : forall e s w sq len k its,
  atomic_send e = false -> w_broken s = false ->
  let s1 := fst (turn after_interrupt e s (mkItem w sq len (Cut k))) in
  w_broken s1 = true /\ run after_interrupt e s1 its = (s1, repeat false (length its)).
Check C05_resync : forall e lens sched fr,
  forallb (forallb (fun l => 48 <=? l)) lens = true -> frames_match lens fr ->
  let wire := w_wire (fst (run after_interrupt e w0 (picks lens [] sched))) in
  exists whole torn,
    wire = whole ++ torn /\ forallb seg_whole whole = true /\
    (torn = [] \/ exists t, torn = [t] /\ sg_k t < sg_len t) /\
    parse_frames (render fr wire) = (map (seg_frame fr) whole, render fr torn).
Check C05_frames_wellformed : forall m, msg_ok m = true -> wf_frame (frame_bytes m).
Check C05_mutex_serialises : forall pol e queues sched fr,
  atomic_send e = false ->
  let s := frun true pol e (f0 queues) sched in
  f_holder s = None ->
  frender fr (f_wire s) = render fr (w_wire (fst (run pol e w0 (f_log s)))) /\
  f_broken s = w_broken (fst (run pol e w0 (f_log s))).
Check C05_mutex_serialises_open : forall pol e queues sched fr,
  atomic_send e = false ->
  let s := frun true pol e (f0 queues) sched in
  forall h, f_holder s = Some h ->
  exists closed it done,
    f_log s = closed ++ [it] /\ it_w it = h /\ done <= it_len it /\
    frender fr (f_wire s)
    = render fr (w_wire (fst (run pol e w0 closed))) ++ firstn (N.to_nat done) (fr h (it_seq it)).
Check C05_holds : forall c, c05_wf c = true -> ok_C05 c (model_C05 c) = true.
Check C05_legacy_torn_refuted :
  exists e lens sched,
    let c := mkCase e lens 1 sched in
    c05_wf c = true /\
    o_wire (model_with legacy_policy c) = [mkSeg 0 0 50 10; mkSeg 0 1 50 50] /\
    ok_C05 c (model_with legacy_policy c) = false /\
    frames_match lens c05_fr /\
    parse_frames (render c05_fr (o_wire (model_with legacy_policy c)))
    = ([], render c05_fr (o_wire (model_with legacy_policy c))) /\
    o_wire (model_C05 c) = [mkSeg 0 0 50 10].
Check C05_legacy_blocking_client_refuted :
  ok_C05 (mkCase EClient [[50; 50]] 1 [(0, Cut 10); (0, Whole)])
         (model_with legacy_policy (mkCase EClient [[50; 50]] 1 [(0, Cut 10); (0, Whole)])) = false.
Check C05_legacy_async_client_refuted :
  ok_C05 (mkCase EAsyncClient [[50]; [50]] 1 [(0, Cut 49); (1, Whole)])
         (model_with legacy_policy (mkCase EAsyncClient [[50]; [50]] 1 [(0, Cut 49); (1, Whole)])) = false.
Check C05_unlocked_interleave_refuted :
  let queues := [(0, [mkJob 0 [48; 2] Whole]); (1, [mkJob 0 [48; 2] Whole])] in
  let sched := [0; 1; 0; 1; 0; 1; 0; 1] in
  f_wire (frun false after_interrupt EClient (f0 queues) sched)
  = [mkRun 0 0 50 0 48; mkRun 1 0 50 0 48; mkRun 0 0 50 48 2; mkRun 1 0 50 48 2] /\
  f_wire (frun true after_interrupt EClient (f0 queues) sched)
  = [mkRun 0 0 50 0 48; mkRun 0 0 50 48 2].

(** the auxiliary notions are the plain ones *)
Check (eq_refl : wf_frame = fun f => (48 <= length f)%nat /\ lenN f = 48 + field f 24 8 + field f 32 8).
Check (eq_refl : frames_match = fun lens fr =>
  forall w i len, nth_error (nth (N.to_nat w) lens []) (N.to_nat i) = Some len ->
                  wf_frame (fr w i) /\ lenN (fr w i) = len).
Check (eq_refl : seg_frame = fun fr s => fr (sg_w s) (sg_seq s)).
Check (eq_refl : seg_key = fun s => (sg_w s, sg_seq s)).
Check (eq_refl : item_key = fun it => (it_w it, it_seq it)).
Check (eq_refl : after_interrupt = fun e => match e with
  | EClient => Close | EAsyncClient => Close | EWsClient => Close
  | EServer => Close | EAsyncServer => Close | EWsServer => Close end).
Check (@sub_nil : forall A (l : list A), subseq [] l).
Check (@sub_skip : forall A (a : list A) x l, subseq a l -> subseq a (x :: l)).
Check (@sub_take : forall A (a : list A) x l, subseq a l -> subseq (x :: a) (x :: l)).

Print Assumptions C05_no_interleave.
Print Assumptions C05_wire_bytes.
Print Assumptions C05_torn_is_last.
Print Assumptions C05_resync.
Print Assumptions C05_frames_wellformed.
Print Assumptions C05_mutex_serialises.
Print Assumptions C05_mutex_serialises_open.
Print Assumptions C05_holds.
Print Assumptions C05_legacy_torn_refuted.
Print Assumptions C05_legacy_blocking_client_refuted.
Print Assumptions C05_legacy_async_client_refuted.
Print Assumptions C05_unlocked_interleave_refuted.
