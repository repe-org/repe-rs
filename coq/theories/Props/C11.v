(** C11 — Credit accounting of TransferControl: acknowledged <= sent, stale or
    foreign acks release nothing, credit is granted exactly when the window
    has room (or nothing is in flight), cancellation is permanent and its
    first reason wins.
    This file contains only statements (each derived in a line or two from the
    lemma of Proofs/ it is an instance of), their pins and their assumptions. *)
From RepeV Require Import Model.C11 Proofs.StreamProofs.

(** the acknowledged offset never exceeds the sent offset, on every history *)
Theorem C11_acked_le_sent : forall w c ops,
  t_acked (exec (init w c) ops) <= t_sent (exec (init w c) ops).
Proof. exact acked_le_sent. Qed.

(** an ack for another file, or at or below the acknowledged offset, changes nothing *)
Theorem C11_stale_ack_no_credit : forall s f n,
  t_acked s <= t_sent s -> (f <> t_file s \/ n <= t_acked s) -> fst (step s (Ack f n)) = s.
Proof. exact stale_ack_no_credit. Qed.

(** acks are monotone and capped at what was sent *)
Theorem C11_ack_monotone_capped : forall s f n,
  t_acked s <= t_sent s ->
  let s' := fst (step s (Ack f n)) in
  t_acked s <= t_acked s' /\ t_acked s' <= t_sent s' /\ t_sent s' = t_sent s.
Proof.
  intros s f n H. cbn zeta. rewrite step_fst. destruct (credit_step s (Ack f n) H). lia.
Qed.

(** credit is granted exactly when not cancelled and nothing is in flight or
    the chunk fits the window (unbounded addition: no wrap) *)
Theorem C11_grant_iff : forall s len,
  t_window s < two64 ->
  (step s (TryCredit len) = (s, OGranted) <->
   t_cancelled s = None /\ (in_flight s = 0 \/ in_flight s + len <= t_window s)).
Proof. exact grant_iff. Qed.

(** a producer that sends only after being granted credit, interleaved with
    arbitrary acks / resumes / cancels / advances, never has more than one
    window or one oversized chunk unacknowledged *)
Theorem C11_producer_bound : forall w c evs M,
  (forall e, In e evs -> ev_len e <= M) ->
  in_flight (fold_left run_ev evs (init w c)) <= N.max w M.
Proof. exact producer_bound. Qed.

(** cancellation is permanent *)
Theorem C11_cancel_sticky : forall s r ops,
  t_cancelled s = Some r -> t_cancelled (exec s ops) = Some r.
Proof.
  intros s r ops. apply (exec_invariant (fun s' => t_cancelled s' = Some r)).
  intros s' o. apply step_cancel_sticky.
Qed.

(** ... and is reported by every waiting entry point *)
Theorem C11_cancelled_reports : forall s r,
  t_cancelled s = Some r ->
  (forall len, step s (TryCredit len) = (s, OCreditCancelled r)) /\
  step s TryReconnect = (s, OReconnCancelled r) /\
  (forall p f n, step s (Resume p f n) = (s, ORejCancelled)).
Proof. exact cancelled_reports. Qed.

(** the first reason wins (with [C11_cancel_sticky]) *)
Theorem C11_first_reason_wins : forall s r,
  t_cancelled s = None -> t_cancelled (fst (step s (Cancel r))) = Some r.
Proof. exact first_reason_wins. Qed.

(** the executable oracle (also applied to the implementation's observations)
    accepts the model on every well-formed history *)
Theorem C11_holds : forall w c ops,
  hist_ok w c ops = true -> ok_C11 w ops (model_trace w c ops) = true.
Proof. exact ok_model_C11. Qed.

(** non-vacuity: a well-formed history with sends, a foreign ack, a stale ack,
    a capped ack, a resume, two cancels and credit requests; the oracle accepts
    it, the second cancel reason is ignored *)
Example C11_nonvacuous :
  let ops := [TryCredit 10; Sent 10; TryCredit 10; Ack 1 5; Ack 0 4; Ack 0 2; Ack 0 99;
              Push 0 10 false [1; 2; 3]; Resume 7 0 0; TryCredit 20; Cancel 3; Cancel 4;
              TryCredit 1; TryReconnect; Advance 1; Sent 5] in
  hist_ok 16 64 ops = true /\ ok_C11 16 ops (model_trace 16 64 ops) = true /\
  t_cancelled (exec (init 16 64) ops) = Some 3 /\
  map fst (model_trace 16 64 [TryCredit 10; Sent 10; TryCredit 10; TryCredit 6; Ack 0 10; TryCredit 99])
  = [OGranted; ONone; OCreditTimeout; OGranted; ONone; OGranted].
Proof. vm_compute. repeat split. Qed.

(** non-vacuity of the producer bound: the bound is reached *)
Example C11_producer_nonvacuous :
  let evs := [Produce 4; Produce 4; Produce 1; Env (Sent 1000); Env (Ack 1 8); Produce 40] in
  forallb (fun e => ev_len e <=? 40) evs = true /\
  in_flight (fold_left run_ev evs (init 8 0)) = 8 /\
  in_flight (fold_left run_ev [Produce 40] (init 8 0)) = 40.
Proof. vm_compute. repeat split. Qed.

Check C11_acked_le_sent : forall w c ops, t_acked (exec (init w c) ops) <= t_sent (exec (init w c) ops).
Check C11_stale_ack_no_credit : forall s f n,
  t_acked s <= t_sent s -> (f <> t_file s \/ n <= t_acked s) -> fst (step s (Ack f n)) = s.
Check C11_ack_monotone_capped : forall s f n, t_acked s <= t_sent s ->
  let s' := fst (step s (Ack f n)) in
  t_acked s <= t_acked s' /\ t_acked s' <= t_sent s' /\ t_sent s' = t_sent s.
Check C11_grant_iff : forall s len, t_window s < two64 ->
  (step s (TryCredit len) = (s, OGranted) <->
   t_cancelled s = None /\ (in_flight s = 0 \/ in_flight s + len <= t_window s)).
Check C11_producer_bound : forall w c evs M, (forall e, In e evs -> ev_len e <= M) ->
  in_flight (fold_left run_ev evs (init w c)) <= N.max w M.
Check C11_cancel_sticky : forall s r ops, t_cancelled s = Some r -> t_cancelled (exec s ops) = Some r.
Check C11_cancelled_reports : forall s r, t_cancelled s = Some r ->
  (forall len, step s (TryCredit len) = (s, OCreditCancelled r)) /\
  step s TryReconnect = (s, OReconnCancelled r) /\
  (forall p f n, step s (Resume p f n) = (s, ORejCancelled)).
Check C11_first_reason_wins : forall s r,
  t_cancelled s = None -> t_cancelled (fst (step s (Cancel r))) = Some r.
Check C11_holds : forall w c ops, hist_ok w c ops = true -> ok_C11 w ops (model_trace w c ops) = true.

Print Assumptions C11_acked_le_sent.
Print Assumptions C11_stale_ack_no_credit.
Print Assumptions C11_ack_monotone_capped.
Print Assumptions C11_grant_iff.
Print Assumptions C11_producer_bound.
Print Assumptions C11_cancel_sticky.
Print Assumptions C11_cancelled_reports.
Print Assumptions C11_first_reason_wins.
Print Assumptions C11_holds.

(** ** tie to the source text: the method bodies of src/stream.rs, re-translated
    into Gallina by bin/rs2v on every run (Gen/StreamGen.v), are the model's
    steps.  A method that could not be translated is [None] and its clause is
    [True] (reported by rs2v); a method whose meaning changed breaks the proof. *)
From RepeV Require Import Model.Condvar Base.GenPrelude Gen.StreamGen Proofs.StreamGenAgree.

Theorem C11_source_translation :
  agrees2 gen_record_sent (fun s n => (fst (step s (Sent n)), false)) /\
  agrees3 gen_record_ack (fun s f n => (fst (step s (Ack f n)), notifies s (Ack f n))) /\
  agrees2 gen_cancel (fun s r => (fst (step s (Cancel r)), notifies s (Cancel r))) /\
  agrees2 gen_advance_to_file (fun s f => (fst (step s (Advance f)), true)) /\
  agrees2 gen_set_peer (fun s p => (fst (step s (SetPeer p)), false)) /\
  match gen_wait_for_credit with
  | Some f => forall s len, t_window s < two64 ->
      let '(s', i, nt) := f s len true in
      (s', iter_map out_of_credit i, nt) = (fst (step s (TryCredit len)), Some (snd (step s (TryCredit len))), false)
  | None => True
  end.
Proof.
  exact (conj record_sent_agrees (conj record_ack_agrees (conj cancel_agrees (conj advance_to_file_agrees
        (conj set_peer_agrees wait_for_credit_expired))))).
Qed.

Check C11_source_translation :
  agrees2 gen_record_sent (fun s n => (fst (step s (Sent n)), false)) /\
  agrees3 gen_record_ack (fun s f n => (fst (step s (Ack f n)), notifies s (Ack f n))) /\
  agrees2 gen_cancel (fun s r => (fst (step s (Cancel r)), notifies s (Cancel r))) /\
  agrees2 gen_advance_to_file (fun s f => (fst (step s (Advance f)), true)) /\
  agrees2 gen_set_peer (fun s p => (fst (step s (SetPeer p)), false)) /\
  match gen_wait_for_credit with
  | Some f => forall s len, t_window s < two64 ->
      let '(s', i, nt) := f s len true in
      (s', iter_map out_of_credit i, nt) = (fst (step s (TryCredit len)), Some (snd (step s (TryCredit len))), false)
  | None => True
  end.

Print Assumptions C11_source_translation.
