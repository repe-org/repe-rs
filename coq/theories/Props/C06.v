(** C06 — A dead or misbehaving connection fails calls promptly: no hang, no
    residue.  Statements (each an instance of a lemma of
    Proofs/ClientFailProofs.v), their pins, assumptions and examples.

    The model ([Model/ClientFail.v]) interleaves callers, the response loop and
    the subscriber at the granularity of one critical section per step; a step
    that is not enabled leaves the state unchanged, so the theorems below
    quantify over ALL lists of steps: every interleaving that respects each
    thread's program order. *)
From RepeV Require Import Model.ClientFail Proofs.ClientFailProofs.

(** the invariant holds in every reachable state, for the three clients *)
Theorem C06_invariant_reachable : forall k l, inv (run (init k) l).
Proof. exact reachable_inv. Qed.

(** no hang: a caller waiting for its response either has the response in the
    reader's hand (about to be delivered), or still has its entry in the
    pending map of a response loop that has neither drained nor been told to
    stop — whose failure sequence will therefore still reach it *)
Theorem C06_no_hang : forall k l c id,
  let s := run (init k) l in
  stof s c = CWait id ->
  s_rd s = RHold (Some c) \/ (In (id, c) (s_pending s) /\ dead s = false).
Proof. intros k l c id. exact (no_hang_inv _ c id (reachable_inv k l)). Qed.

(** ... so once the response loop has drained, nobody waits *)
Theorem C06_drained_reader_no_waiter : forall k l c id,
  let s := run (init k) l in
  s_rd s = RDead \/ s_rd s = RDrained -> stof s c <> CWait id.
Proof. intros k l c id. exact (dead_no_waiter _ c id (reachable_inv k l)). Qed.

(** ... and a response loop that met a read error always gets there by its own
    steps and the end of a stalled write (which the shutdown forces): it never
    needs the peer, whoever holds the writer lock *)
Theorem C06_reader_finishes : forall k l,
  let s := run (init k) l in
  s_rd s = RErr -> s_rd (run s (fail_seq s)) = RDead.
Proof. intros k l. exact (reader_finishes _ (reachable_inv k l)). Qed.

(** later calls: once the response loop made writes fail, the socket is marked
    shut, and a call that starts then returns an error at its write *)
Theorem C06_later_calls_error : forall k l c,
  let s := run (init k) l in
  past_fail (s_rd s) = true -> lock_free s = true -> stof s c = CNone ->
  s_shut s = true /\ stof (run s [Register c; Write c]) c = CDone (s_next s) RConn.
Proof.
  intros k l c s P L E. pose proof (shut_after_fail s (reachable_inv k l) P) as Sh.
  split; [exact Sh | exact (later_call_errors s c Sh L E)].
Qed.

(** a writer stalled on a peer that does not read is released by the shutdown *)
Theorem C06_stalled_writer_released : forall k l c,
  let s := run (init k) l in
  s_shut s = true -> s_lock s = Some c ->
  lock_free (do_step s (WStallEnd c)) = true /\ exists id, stof (do_step s (WStallEnd c)) c = CDone id RConn.
Proof. intros k l c. exact (stalled_writer_released _ c (reachable_inv k l)). Qed.

(** subscriber: from the moment the notify sender is dropped — before writes
    are made to fail, before any waiter is failed — no subscription made while
    the connection lived is still open *)
Theorem C06_subscriber_eos : forall l,
  let s := run (init KWs) l in
  before_subend (s_rd s) = false -> s_sub s <> SSub.
Proof. intros l s B. exact (subscriber_ended s (reachable_inv KWs l) (kind_run (init KWs) l) B). Qed.

Theorem C06_subscriber_ended_by_step : forall s,
  s_rd s = RErr -> s_kind s = KWs -> s_sub s = SSub -> s_sub (do_step s SubEnd) = SEnded.
Proof. exact subend_ends. Qed.

(** no residue: a call that returned (result, timeout, cancellation, write
    error, drained) has left no entry in the pending map *)
Theorem C06_no_residue : forall k l c id r,
  let s := run (init k) l in
  stof s c = CDone id r -> pfind (s_pending s) id = None.
Proof. intros k l c id r. exact (no_residue_inv _ c id r (reachable_inv k l)). Qed.

(** a late response (for a call that already returned) and a response with an
    id that is not pending change nothing at all *)
Theorem C06_late_response_harmless : forall k l c id r,
  let s := run (init k) l in
  s_rd s = RAlive -> stof s c = CDone id r -> run s [RTake id; RDeliver] = s.
Proof. intros k l c id r. exact (late_response_noop _ c id r (reachable_inv k l)). Qed.

Theorem C06_unknown_response_harmless : forall s id,
  s_rd s = RAlive -> pfind (s_pending s) id = None -> run s [RTake id; RDeliver] = s.
Proof. exact unknown_response_noop. Qed.

(** a response is handed to the caller that registered its id *)
Theorem C06_response_goes_to_owner : forall k l id c,
  let s := run (init k) l in
  pfind (s_pending s) id = Some c -> id_of (stof s c) = id.
Proof. intros k l id c. exact (response_goes_to_owner _ id c (reachable_inv k l)). Qed.

(** the scenarios the harness runs: the model refines the specification of
    the property (every event of every valid scenario) *)
Theorem C06_refines : forall k p,
  (k_sub k = true -> k_kind k = KWs) ->
  spec_run k sp0 (k_script k) = Some p ->
  sim k p (fold_left exec_event (k_script k) (x0 k)).
Proof. intros k p Hk H. exact (sim_run k sp0 (x0 k) (k_script k) p Hk (sim_init k Hk) H). Qed.

(** the executable oracle (also applied to the implementation's observations)
    accepts the model on every scenario *)
Theorem C06_holds : forall k, c06_wf k = true -> ok_C06 k (model_C06 k) = true.
Proof. exact ok_model_C06. Qed.

(** ** negative examples: the two orders the code must not have *)

(** drain first, make writes fail afterwards: a caller that registers between
    the two writes successfully and waits on a response loop that has ended *)
Definition c06_between : list step :=
  [Register 0; Write 0; ReadErr; SubEnd; Drain; Register 1; Write 1; OwnShut].

Example C06_swapped_order_hangs :
  let s := run_swapped (init KAsync) c06_between in
  s_rd s = RDead /\ stof s 0 = CDone 1 RConn /\ stof s 1 = CWait 2 /\ s_pending s = [(2, 1)] /\ someone_waits s = true.
Proof. vm_compute. repeat split; reflexivity. Qed.

(** the same callers against the real order: the second call fails at its write *)
Example C06_real_order_same_callers :
  let s := run (init KAsync) [Register 0; Write 0; ReadErr; SubEnd; OwnShut; Register 1; Write 1; Drain; LockShut] in
  s_rd s = RDead /\ stof s 0 = CDone 1 RConn /\ stof s 1 = CDone 2 RConn /\ s_pending s = [] /\ someone_waits s = false.
Proof. vm_compute. repeat split; reflexivity. Qed.

(** writes made to fail only under the writer lock (the three clients before
    the repairs): with a writer stalled on a peer that does not read, the
    failing response loop cannot move and the call in flight keeps waiting *)
Definition c06_stalled : list step :=
  [Register 0; Write 0; Register 1; WStall 1; ReadErr; SubEnd; OwnShut].

Example C06_shutdown_behind_writer_lock_hangs :
  let s := run_locked (init KTcp) c06_stalled in
  s_rd s = ROwnShut /\ s_shut s = false /\ s_lock s = Some 1 /\ stof s 0 = CWait 1 /\
  s_rd (run_locked s [LockShut; Drain; LockShut; Drain]) = ROwnShut /\
  stof (run_locked s [LockShut; Drain; LockShut; Drain]) 0 = CWait 1.
Proof. vm_compute. repeat split; reflexivity. Qed.

(** the real order on the same steps, for the three clients: the stalled write
    is failed, both calls return errors, the loop ends *)
Example C06_stalled_writer_real_order :
  forallb (fun k =>
    let s := run (init k) c06_stalled in
    let s' := run s (fail_seq (run (init k) [Register 0; Write 0; Register 1; WStall 1; ReadErr])) in
    match s_rd s', stof s' 0, stof s' 1 with
    | RDead, CDone 1 RConn, CDone 2 RConn => negb (someone_waits s')
    | _, _, _ => false
    end) [KTcp; KAsync; KWs] = true.
Proof. vm_compute. reflexivity. Qed.

(** the async client's second failure path: the stalled write itself fails
    (peer gone), its FrameWriteGuard marks the connection broken, fails every
    pending call and tells the response loop to stop, which then ends without
    draining — nobody is left waiting *)
Example C06_async_guard_path :
  let s := run (init KAsync) [Register 0; Write 0; Register 1; WStall 1; WStallEnvFail 1; RStop; Register 2; Write 2] in
  s_rd s = RDead /\ s_gstop s = true /\ stof s 0 = CDone 1 RConn /\ stof s 1 = CDone 2 RConn /\
  stof s 2 = CDone 3 RConn /\ s_pending s = [] /\ someone_waits s = false.
Proof. vm_compute. repeat split; reflexivity. Qed.

(** ** non-vacuity *)

(** a WebSocket scenario with a subscriber: a notification, a call answered,
    a call timed out whose late response is discarded, a call cancelled while
    the reader holds its response, two calls in flight when a malformed frame
    arrives, the reader held before the drain while a later call fails at its
    write, the drain, one more later call *)
Definition c06_case : case :=
  mkCase KWs true 7
    [ENotify; EQuery; EStart 0 false; ERespond 0; EExpire 1; ERespond 1; EStart 2 false; ECancelB 2;
     EStart 3 true; EStart 4 false; EFaultPark; EQuery; EStart 5 false; ERelease; EStart 6 true; EQuery].

Example C06_nonvacuous_wf : c06_wf c06_case = true.
Proof. vm_compute. reflexivity. Qed.

Example C06_nonvacuous_model :
  model_C06 c06_case =
  mkObs [OOk; OTimeout; OCancelled; OConn; OConn; OConn; OConn] UEos [UOpen; UEos; UEos] 1 true [].
Proof. vm_compute. reflexivity. Qed.

(** the stalled-writer scenario on the three clients *)
Example C06_nonvacuous_stalled :
  map (fun k => o_res (model_C06 (mkCase k false 3 [EStart 0 false; EStallStart 1; EFault; EStart 2 false])))
      [KTcp; KAsync; KWs]
  = [[OConn; OConn; OConn]; [OConn; OConn; OConn]; [OConn; OConn; OConn]].
Proof. vm_compute. reflexivity. Qed.

(** the oracle is not trivially true: it rejects a call left hanging after the
    fault, a later call that got a value, a late response delivered to the
    wrong call, a subscriber that did not see end-of-stream, and residue *)
Example C06_oracle_rejects :
  let good := model_C06 c06_case in
  ok_C06 c06_case good = true /\
  ok_C06 c06_case (mkObs [OOk; OTimeout; OCancelled; OHang; OConn; OConn; OConn] UEos [UOpen; UEos; UEos] 1 true []) = false /\
  ok_C06 c06_case (mkObs [OOk; OTimeout; OCancelled; OConn; OConn; OOk; OConn] UEos [UOpen; UEos; UEos] 1 true []) = false /\
  ok_C06 c06_case (mkObs [OOk; OWrong; OCancelled; OConn; OConn; OConn; OConn] UEos [UOpen; UEos; UEos] 1 true []) = false /\
  ok_C06 c06_case (mkObs [OOk; OTimeout; OCancelled; OConn; OConn; OConn; OConn] UOpen [UOpen; UEos; UEos] 1 true []) = false /\
  ok_C06 c06_case (mkObs [OOk; OTimeout; OCancelled; OConn; OConn; OConn; OConn] UEos [UOpen; UOpen; UEos] 1 true []) = false /\
  ok_C06 (mkCase KAsync false 1 [EExpire 0; EProbe 0]) (mkObs [OTimeout] UNone [] 0 false [true]) = false /\
  ok_C06 (mkCase KAsync false 1 [EExpire 0; EProbe 0]) (model_C06 (mkCase KAsync false 1 [EExpire 0; EProbe 0])) = true.
Proof. vm_compute. repeat split; reflexivity. Qed.

(** the hypotheses of the general theorems are satisfiable: a reachable state
    with a waiting caller, a returned one, a stalled writer and a failing loop *)
Example C06_nonvacuous_states :
  let s := run (init KTcp) [Register 0; Write 0; Register 1; Write 1; TFire 1; TRemove 1; Register 2; WStall 2; ReadErr] in
  stof s 0 = CWait 1 /\ stof s 1 = CDone 2 RTimeout /\ s_lock s = Some 2 /\ s_rd s = RErr /\
  s_pending s = [(1, 0); (3, 2)] /\
  fail_seq s = [SubEnd; OwnShut; WStallEnd 2; LockShut; Drain; LockShut].
Proof. vm_compute. repeat split; reflexivity. Qed.

Check C06_invariant_reachable : forall k l, inv (run (init k) l).
Check C06_no_hang : forall k l c id,
  let s := run (init k) l in
  stof s c = CWait id ->
  s_rd s = RHold (Some c) \/ (In (id, c) (s_pending s) /\ dead s = false).
Check C06_drained_reader_no_waiter : forall k l c id,
  let s := run (init k) l in
  s_rd s = RDead \/ s_rd s = RDrained -> stof s c <> CWait id.
Check C06_reader_finishes : forall k l,
  let s := run (init k) l in
  s_rd s = RErr -> s_rd (run s (fail_seq s)) = RDead.
Check C06_later_calls_error : forall k l c,
  let s := run (init k) l in
  past_fail (s_rd s) = true -> lock_free s = true -> stof s c = CNone ->
  s_shut s = true /\ stof (run s [Register c; Write c]) c = CDone (s_next s) RConn.
Check C06_stalled_writer_released : forall k l c,
  let s := run (init k) l in
  s_shut s = true -> s_lock s = Some c ->
  lock_free (do_step s (WStallEnd c)) = true /\ exists id, stof (do_step s (WStallEnd c)) c = CDone id RConn.
Check C06_subscriber_eos : forall l,
  let s := run (init KWs) l in
  before_subend (s_rd s) = false -> s_sub s <> SSub.
Check C06_subscriber_ended_by_step : forall s,
  s_rd s = RErr -> s_kind s = KWs -> s_sub s = SSub -> s_sub (do_step s SubEnd) = SEnded.
Check C06_no_residue : forall k l c id r,
  let s := run (init k) l in
  stof s c = CDone id r -> pfind (s_pending s) id = None.
Check C06_late_response_harmless : forall k l c id r,
  let s := run (init k) l in
  s_rd s = RAlive -> stof s c = CDone id r -> run s [RTake id; RDeliver] = s.
Check C06_unknown_response_harmless : forall s id,
  s_rd s = RAlive -> pfind (s_pending s) id = None -> run s [RTake id; RDeliver] = s.
Check C06_response_goes_to_owner : forall k l id c,
  let s := run (init k) l in
  pfind (s_pending s) id = Some c -> id_of (stof s c) = id.
Check C06_refines : forall k p,
  (k_sub k = true -> k_kind k = KWs) ->
  spec_run k sp0 (k_script k) = Some p ->
  sim k p (fold_left exec_event (k_script k) (x0 k)).
Check C06_holds : forall k, c06_wf k = true -> ok_C06 k (model_C06 k) = true.

(** the auxiliary predicates are the plain statements *)
Check (eq_refl : past_fail = fun r => match r with ROwnShut | RShutDone | RDrained | RDead => true | _ => false end).
Check (eq_refl : before_subend = fun r => match r with RAlive | RHold _ | RErr => true | _ => false end).
Check (eq_refl : dead = fun s => match s_rd s with RDrained | RDead => true | _ => s_gstop s end).
Check (eq_refl : fail_seq = fun s =>
  [SubEnd; OwnShut] ++ (match s_lock s with Some c => [WStallEnd c] | None => [] end) ++ [LockShut; Drain; LockShut]).

Print Assumptions C06_invariant_reachable.
Print Assumptions C06_no_hang.
Print Assumptions C06_drained_reader_no_waiter.
Print Assumptions C06_reader_finishes.
Print Assumptions C06_later_calls_error.
Print Assumptions C06_stalled_writer_released.
Print Assumptions C06_subscriber_eos.
Print Assumptions C06_subscriber_ended_by_step.
Print Assumptions C06_no_residue.
Print Assumptions C06_late_response_harmless.
Print Assumptions C06_unknown_response_harmless.
Print Assumptions C06_response_goes_to_owner.
Print Assumptions C06_refines.
Print Assumptions C06_holds.
