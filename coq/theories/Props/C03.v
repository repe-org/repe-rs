(** C03 — every request gets exactly one matching response, notifies get none;
    the handler runs once iff the request is dispatched; the error-code table;
    inline paths answer in arrival order; the four dispatch paths (blocking
    TCP, async TCP, WebSocket inline, WebSocket off-reader) write the same
    frame for the same request.  Statements only (each derived in a line or
    two from the lemma of Proofs/ it is an instance of), their pins and their
    assumptions. *)
From RepeV Require Import Model.Route Proofs.RouteProofs.
From RepeV Require Import Gen.Tables Proofs.TablesC01 Proofs.TablesMisc.

(** on each of the four paths a request whose notify byte is not 1 is answered
    by exactly one frame (the step yields one), carrying its id and its query
    unless the handler chose its own; on the inline paths this presumes that
    the user function returns *)
Theorem C03_one_response : forall p rt r,
  is_notify r = false -> (panics r = false \/ p = PWsOff) ->
  exists resp, s_resp (step_of p rt r) = Some resp /\ p_id resp = q_id r /\ query_rule r resp.
Proof. exact one_response. Qed.

(** for a pipeline of any length: the frames written are in one-to-one, order
    preserving correspondence with the non-notify requests *)
Theorem C03_one_response_each : forall p rt rs,
  (forall r, In r rs -> panics r = false \/ p = PWsOff) ->
  Forall2 (fun r resp => p_id resp = q_id r /\ query_rule r resp)
          (filter non_notify rs) (run_resps (step_of p) rt rs).
Proof. exact one_response_each. Qed.

(** a request whose notify byte is 1 is never answered, whatever else it is *)
Theorem C03_notify_silent : forall p rt r, q_notify r = 1 -> s_resp (step_of p rt r) = None.
Proof. exact notify_silent. Qed.

(** the user function runs at most once, and exactly once iff the request
    passes the version / query-format / UTF-8 / lookup checks, the middleware
    lets it through and its body is acceptable and decodable (for a registry
    mount: it is a call of a registered function) *)
Theorem C03_invoked_once_iff_dispatched : forall p rt r,
  (p = PWsOff -> o_sat r = false) ->
  (s_inv (step_of p rt r) = [] \/ exists rid, s_inv (step_of p rt r) = [rid]) /\
  ((exists rid, s_inv (step_of p rt r) = [rid]) <-> reaches_user rt r).
Proof. exact invoked_once_iff. Qed.

Theorem C03_invocation_table : forall p rt r,
  (p = PWsOff -> o_sat r = false) ->
  s_inv (step_of p rt r) = match spec_invoked false rt r with Some x => [x] | None => [] end.
Proof. exact invoked_spec. Qed.

(** the frame written meets the decision table of the property *)
Theorem C03_response_meets_table : forall p rt r resp,
  is_notify r = false -> (p = PWsOff -> o_sat r = false) ->
  s_resp (step_of p rt r) = Some resp -> resp_meets (spec_expect false rt r) resp = true.
Proof. intros p rt r resp _. apply step_meets. Qed.

(** row by row *)
Theorem C03_error_code_table : forall p rt r resp,
  is_notify r = false -> (p = PWsOff -> o_sat r = false) -> s_resp (step_of p rt r) = Some resp ->
  (q_version r <> 1 -> p_ec resp = EC_VERSION /\ p_qfmt resp = 0) /\
  (q_version r = 1 -> q_qfmt r <> 1 \/ o_utf8 r = false -> p_ec resp = EC_QUERY /\ p_qfmt resp = 0) /\
  (q_version r = 1 -> q_qfmt r = 1 -> o_utf8 r = true -> router_get rt (q_query r) = None ->
     p_ec resp = EC_NOTFOUND /\ p_qfmt resp = 0) /\
  (forall m h, dispatched rt r = Some (m, h) ->
     (forall c msg, mw_refusal rt r = Some (c, msg) -> p_ec resp = c /\ p_qfmt resp = 0) /\
     (mw_refusal rt r = None ->
        (body_class h r = BBadFormat -> p_ec resp = EC_BODY /\ p_qfmt resp = 0) /\
        (body_class h r = BUndecodable -> p_ec resp = undecodable_code (h_kind h) /\ p_qfmt resp = 0) /\
        (body_class h r = BOk ->
           (forall c msg, o_user r = UErr c msg -> p_ec resp = c /\ p_qfmt resp = 0) /\
           (forall bf b, o_user r = UVal bf b ->
              p_ec resp = 0 /\ p_qfmt resp = q_qfmt r /\ p_bfmt resp = bf /\ p_body resp = b) /\
           (o_user r = UPanic -> p_ec resp = EC_INTERNAL)))).
Proof. exact error_code_table. Qed.

(** for a handler that returns and a request that is not shed, any two of the
    four paths write the same frame and run the same functions *)
Theorem C03_transports_agree : forall rt r p1 p2,
  panics r = false -> o_sat r = false ->
  s_resp (step_of p1 rt r) = s_resp (step_of p2 rt r) /\
  s_inv (step_of p1 rt r) = s_inv (step_of p2 rt r) /\
  s_mw (step_of p1 rt r) = s_mw (step_of p2 rt r).
Proof. exact transports_agree. Qed.

(** the WebSocket reader as it is (arm chosen by the handler) writes what the TCP loop writes *)
Theorem C03_ws_reader_agrees : forall rt r,
  panics r = false -> o_sat r = false -> s_resp (ws_step rt r) = s_resp (tcp_step rt r).
Proof. intros rt r P S. rewrite ws_step_path, tcp_step_path, path_step_off; auto. Qed.

(** the owned stamp and the borrowed echo of the request query are the same function *)
Theorem C03_stamp_is_echo : forall r p, finish_stamp r p = finish_echo r p.
Proof. exact finish_stamp_echo. Qed.

(** inline paths, pipelines of any length: the list of frames is, position by
    position, what the table says of the non-notify requests in arrival order *)
Theorem C03_inline_order : forall p rt rs,
  p <> PWsOff -> (forall r, In r rs -> panics r = false) ->
  Forall2 (fun r resp => resp_meets (spec_expect false rt r) resp = true)
          (filter non_notify rs) (run_resps (step_of p) rt rs).
Proof. exact inline_order. Qed.

Theorem C03_inline_lists_equal : forall rt rs, tcp rt rs = async_tcp rt rs /\ tcp rt rs = ws_inline rt rs.
Proof.
  intros rt rs. split.
  - reflexivity. (* Model/Route.v gives both TCP loops the one step: [async_step] is [tcp_step] *)
  - apply run_resps_ext. intros r _. now rewrite tcp_step_path, wsi_step_path.
Qed.

Theorem C03_offreader_list_equal : forall rt rs,
  (forall r, In r rs -> panics r = false /\ o_sat r = false) -> ws_offreader rt rs = tcp rt rs.
Proof.
  intros rt rs H. apply run_resps_ext. intros r Hin. destruct (H r Hin) as [P S].
  rewrite wso_step_path, tcp_step_path, path_step_off; auto.
Qed.

(** off-reader arm only: a request that finds no free permit is answered
    ResourceExhausted (a notify dropped) and nothing runs; a panicking user
    function is answered InternalError with the request's id and query *)
Theorem C03_saturation_sheds : forall rt r m h,
  dispatched rt r = Some (m, h) -> o_sat r = true ->
  s_resp (wso_step rt r) = (if is_notify r then None else Some (mkResp (q_id r) EC_EXHAUSTED 0 3 (q_query r) msg_saturated)) /\
  s_inv (wso_step rt r) = [] /\ s_mw (wso_step rt r) = O.
Proof. exact saturation_sheds. Qed.

Theorem C03_offreader_panic_contained : forall rt r m h,
  dispatched rt r = Some (m, h) -> o_sat r = false -> mw_refusal rt r = None -> body_class h r = BOk ->
  o_user r = UPanic -> is_notify r = false ->
  s_resp (wso_step rt r) = Some (mkResp (q_id r) EC_INTERNAL 0 3 (q_query r) msg_panicked).
Proof. exact offreader_panic_contained. Qed.

(** the executable oracle (also applied to the implementation's observations)
    accepts the model on every well-formed case *)
Theorem C03_holds : forall c, c03_wf c = true -> ok_C03 c (model_C03 c) = true.
Proof. exact ok_model_C03. Qed.

(** ** non-vacuity *)
(** routes: "/a" JSON inline (counter 0), "/b" JSON off-reader (1), a registry
    at "/reg" with a function at "/fn" (2), a struct at "/st" (3) *)
Definition ex_rt (mw : bool) : router :=
  mkRouter [([47; 97], mkHandler 0 KJson false []); ([47; 98], mkHandler 1 KJson true [])]
           [([47; 114; 101; 103], mkHandler 2 KRegistry false [[47; 102; 110]])]
           [([47; 115; 116], mkHandler 3 KStruct false [])] mw.

Definition rq (id ntf ver qf bf : N) (q b : list byte) (dec : option (list byte)) (u : uout) : request :=
  mkReq id ntf ver qf bf 0 q b true dec u None false.

(** ok on /a; a notify; ok on the off-reader /b; wrong version; unknown path;
    raw body on /a; undecodable body on /a; handler error 4100 on /b; a read of
    the registry function; raw-format query; notify byte 2 is not a notify *)
Definition ex_reqs : list request :=
  [ rq 1 0 1 1 2 [47; 97] [49] None (UVal 2 [50]);
    rq 2 1 1 1 2 [47; 97] [49] None (UVal 2 [50]);
    rq 3 0 1 1 2 [47; 98] [49] None (UVal 2 [51]);
    rq 4 0 2 1 2 [47; 97] [49] None (UVal 2 [50]);
    rq 5 0 1 1 2 [47; 122] [49] None (UVal 2 [50]);
    rq 6 0 1 1 0 [47; 97] [49] None (UVal 2 [50]);
    rq 7 0 1 1 2 [47; 97] [123] (Some [66; 65; 68]) (UVal 2 [50]);
    rq 8 0 1 1 2 [47; 98] [49] None (UErr 4100 [69]);
    rq 9 0 1 1 0 [47; 114; 101; 103; 47; 102; 110] [] None (UVal 2 [70]);
    rq 10 0 1 0 2 [47; 97] [49] None (UVal 2 [50]);
    rq 11 2 1 1 2 [47; 115; 116] [] None (UVal 2 [82]) ].

Definition ex_case : case := mkCase (ex_rt false) true true true ex_reqs.

Example C03_nonvacuous_wf : c03_wf ex_case = true.
Proof. vm_compute. reflexivity. Qed.

Example C03_nonvacuous_codes :
  map (fun p => (p_id p, p_ec p, p_qfmt p, p_bfmt p)) (tcp (ex_rt false) ex_reqs)
  = [(1, 0, 1, 2); (3, 0, 1, 2); (4, 1, 0, 3); (5, 6, 0, 3); (6, 4, 0, 3); (7, 5, 0, 3); (8, 4100, 0, 3);
     (9, 0, 1, 2); (10, 3, 0, 3); (11, 0, 1, 2)].
Proof. vm_compute. reflexivity. Qed.

Example C03_nonvacuous_counts :
  b_ws (model_C03 ex_case) = b_tcp (model_C03 ex_case) /\
  option_map t_counts (b_tcp (model_C03 ex_case)) = Some [2; 2; 0; 1] /\
  option_map t_counts (b_tcp (model_C03 (mkCase (ex_rt true) true true true ex_reqs))) = Some [2; 2; 0; 1] /\
  option_map t_mw (b_tcp (model_C03 (mkCase (ex_rt true) true true true ex_reqs))) = Some 8.
Proof. vm_compute. repeat split; reflexivity. Qed.

(** the text of an error answer: "Unsupported REPE version 2" *)
Example C03_nonvacuous_text :
  option_map p_body (s_resp (tcp_step (ex_rt false) (rq 4 0 2 1 2 [47; 97] [49] None (UVal 2 [50]))))
  = Some [85; 110; 115; 117; 112; 112; 111; 114; 116; 101; 100; 32; 82; 69; 80; 69; 32; 118; 101; 114; 115; 105; 111; 110; 32; 50].
Proof. vm_compute. reflexivity. Qed.

(** a handler-set response query is kept; an empty one is replaced by the request's *)
Example C03_nonvacuous_own_query :
  let e := mkRouter [([47; 101], mkHandler 0 KErased false [])] [] [] false in
  option_map p_query (s_resp (tcp_step e (rq 1 0 1 1 9 [47; 101] [1] None (UMsg 0 1 7 [47; 111] [5])))) = Some [47; 111] /\
  option_map p_query (s_resp (wso_step e (rq 1 0 1 1 9 [47; 101] [1] None (UMsg 0 1 7 [47; 111] [5])))) = Some [47; 111] /\
  option_map p_query (s_resp (wso_step e (rq 1 0 1 1 9 [47; 101] [1] None (UMsg 0 1 7 [] [5])))) = Some [47; 101].
Proof. vm_compute. repeat split; reflexivity. Qed.

(** the oracle accepts the model and is not trivially true *)
Definition ex_obs := model_C03 ex_case.
Definition with_tcp (o : obs) (f : tobs -> tobs) : obs :=
  mkObs (option_map f (b_tcp o)) (b_async o) (b_ws o).
Definition with_ws (o : obs) (f : tobs -> tobs) : obs :=
  mkObs (b_tcp o) (b_async o) (option_map f (b_ws o)).
Definition set_resps (l : list resp -> list resp) (t : tobs) : tobs :=
  mkTobs (l (t_resps t)) (t_counts t) (t_mw t) (t_alive t).
Definition swap2 {A} (l : list A) : list A := match l with a :: b :: t => b :: a :: t | _ => l end.

Example C03_oracle_accepts : ok_C03 ex_case ex_obs = true.
Proof. vm_compute. reflexivity. Qed.

(** a missing frame, a duplicated frame, two inline answers swapped, a wrong
    error code, a handler run twice, a dead connection: all rejected *)
Example C03_oracle_rejects :
  ok_C03 ex_case (with_tcp ex_obs (set_resps (@tl resp))) = false /\
  ok_C03 ex_case (with_tcp ex_obs (set_resps (fun l => match l with a :: t => a :: a :: t | [] => [] end))) = false /\
  ok_C03 ex_case (with_tcp ex_obs (set_resps swap2)) = false /\
  ok_C03 ex_case (with_tcp ex_obs (set_resps (fun l => match l with a :: t => mkResp (p_id a) 5 (p_qfmt a) (p_bfmt a) (p_query a) (p_body a) :: t | [] => [] end))) = false /\
  ok_C03 ex_case (with_tcp ex_obs (fun t => mkTobs (t_resps t) [3; 2; 0; 1] (t_mw t) (t_alive t))) = false /\
  ok_C03 ex_case (with_tcp ex_obs (fun t => mkTobs (t_resps t) (t_counts t) (t_mw t) false)) = false.
Proof. vm_compute. repeat split; reflexivity. Qed.

(** on the WebSocket an off-reader answer (ids 3 and 8 here) may arrive anywhere ... *)
Definition move_to_end (id : N) (l : list resp) : list resp :=
  filter (fun p => negb (p_id p =? id)) l ++ filter (fun p => p_id p =? id) l.
Example C03_oracle_offreader_order_free :
  ok_C03 ex_case (with_ws ex_obs (set_resps (move_to_end 3))) = true /\
  ok_C03 ex_case (with_ws ex_obs (set_resps (fun l => move_to_end 3 (move_to_end 8 l)))) = true.
Proof. vm_compute. split; reflexivity. Qed.

(** ... but the answers given by the reader task itself (1, 4, 5, ...) keep their order *)
Example C03_oracle_reader_order_kept :
  ok_C03 ex_case (with_ws ex_obs (set_resps (move_to_end 1))) = false /\
  ok_C03 ex_case (with_ws ex_obs (set_resps (move_to_end 4))) = false.
Proof. vm_compute. split; reflexivity. Qed.

(** the hypotheses of the shedding / panic statements are satisfiable *)
Example C03_nonvacuous_shed_panic :
  let shed := mkReq 3 0 1 1 2 0 [47; 98] [49] true None (UVal 2 [51]) None true in
  let boom := rq 3 0 1 1 2 [47; 98] [49] None UPanic in
  (exists m h, dispatched (ex_rt false) shed = Some (m, h)) /\
  option_map p_ec (s_resp (ws_step (ex_rt false) shed)) = Some 8 /\ s_inv (ws_step (ex_rt false) shed) = [] /\
  option_map p_ec (s_resp (ws_step (ex_rt false) boom)) = Some 9 /\ s_inv (ws_step (ex_rt false) boom) = [1] /\
  c03_wf (mkCase (ex_rt false) false false true [shed]) = true /\
  c03_wf (mkCase (ex_rt false) false false true [boom]) = true /\
  c03_wf (mkCase (ex_rt false) true false true [boom]) = false.
Proof. vm_compute. repeat split; try reflexivity. eexists. eexists. reflexivity. Qed.

Check C03_one_response : forall p rt r,
  is_notify r = false -> (panics r = false \/ p = PWsOff) ->
  exists resp, s_resp (step_of p rt r) = Some resp /\ p_id resp = q_id r /\ query_rule r resp.
Check C03_one_response_each : forall p rt rs,
  (forall r, In r rs -> panics r = false \/ p = PWsOff) ->
  Forall2 (fun r resp => p_id resp = q_id r /\ query_rule r resp)
          (filter non_notify rs) (run_resps (step_of p) rt rs).
Check C03_notify_silent : forall p rt r, q_notify r = 1 -> s_resp (step_of p rt r) = None.
Check C03_invoked_once_iff_dispatched : forall p rt r,
  (p = PWsOff -> o_sat r = false) ->
  (s_inv (step_of p rt r) = [] \/ exists rid, s_inv (step_of p rt r) = [rid]) /\
  ((exists rid, s_inv (step_of p rt r) = [rid]) <-> reaches_user rt r).
Check C03_invocation_table : forall p rt r,
  (p = PWsOff -> o_sat r = false) ->
  s_inv (step_of p rt r) = match spec_invoked false rt r with Some x => [x] | None => [] end.
Check C03_response_meets_table : forall p rt r resp,
  is_notify r = false -> (p = PWsOff -> o_sat r = false) ->
  s_resp (step_of p rt r) = Some resp -> resp_meets (spec_expect false rt r) resp = true.
Check C03_error_code_table : forall p rt r resp,
  is_notify r = false -> (p = PWsOff -> o_sat r = false) -> s_resp (step_of p rt r) = Some resp ->
  (q_version r <> 1 -> p_ec resp = EC_VERSION /\ p_qfmt resp = 0) /\
  (q_version r = 1 -> q_qfmt r <> 1 \/ o_utf8 r = false -> p_ec resp = EC_QUERY /\ p_qfmt resp = 0) /\
  (q_version r = 1 -> q_qfmt r = 1 -> o_utf8 r = true -> router_get rt (q_query r) = None ->
     p_ec resp = EC_NOTFOUND /\ p_qfmt resp = 0) /\
  (forall m h, dispatched rt r = Some (m, h) ->
     (forall c msg, mw_refusal rt r = Some (c, msg) -> p_ec resp = c /\ p_qfmt resp = 0) /\
     (mw_refusal rt r = None ->
        (body_class h r = BBadFormat -> p_ec resp = EC_BODY /\ p_qfmt resp = 0) /\
        (body_class h r = BUndecodable -> p_ec resp = undecodable_code (h_kind h) /\ p_qfmt resp = 0) /\
        (body_class h r = BOk ->
           (forall c msg, o_user r = UErr c msg -> p_ec resp = c /\ p_qfmt resp = 0) /\
           (forall bf b, o_user r = UVal bf b ->
              p_ec resp = 0 /\ p_qfmt resp = q_qfmt r /\ p_bfmt resp = bf /\ p_body resp = b) /\
           (o_user r = UPanic -> p_ec resp = EC_INTERNAL)))).
Check C03_transports_agree : forall rt r p1 p2,
  panics r = false -> o_sat r = false ->
  s_resp (step_of p1 rt r) = s_resp (step_of p2 rt r) /\
  s_inv (step_of p1 rt r) = s_inv (step_of p2 rt r) /\
  s_mw (step_of p1 rt r) = s_mw (step_of p2 rt r).
Check C03_ws_reader_agrees : forall rt r,
  panics r = false -> o_sat r = false -> s_resp (ws_step rt r) = s_resp (tcp_step rt r).
Check C03_stamp_is_echo : forall r p, finish_stamp r p = finish_echo r p.
Check C03_inline_order : forall p rt rs,
  p <> PWsOff -> (forall r, In r rs -> panics r = false) ->
  Forall2 (fun r resp => resp_meets (spec_expect false rt r) resp = true)
          (filter non_notify rs) (run_resps (step_of p) rt rs).
Check C03_inline_lists_equal : forall rt rs, tcp rt rs = async_tcp rt rs /\ tcp rt rs = ws_inline rt rs.
Check C03_offreader_list_equal : forall rt rs,
  (forall r, In r rs -> panics r = false /\ o_sat r = false) -> ws_offreader rt rs = tcp rt rs.
Check C03_saturation_sheds : forall rt r m h,
  dispatched rt r = Some (m, h) -> o_sat r = true ->
  s_resp (wso_step rt r) = (if is_notify r then None else Some (mkResp (q_id r) EC_EXHAUSTED 0 3 (q_query r) msg_saturated)) /\
  s_inv (wso_step rt r) = [] /\ s_mw (wso_step rt r) = O.
Check C03_offreader_panic_contained : forall rt r m h,
  dispatched rt r = Some (m, h) -> o_sat r = false -> mw_refusal rt r = None -> body_class h r = BOk ->
  o_user r = UPanic -> is_notify r = false ->
  s_resp (wso_step rt r) = Some (mkResp (q_id r) EC_INTERNAL 0 3 (q_query r) msg_panicked).
Check C03_holds : forall c, c03_wf c = true -> ok_C03 c (model_C03 c) = true.

(** the auxiliary predicates used above are the plain ones *)
Check (eq_refl : query_rule = fun r p =>
  p_query p = q_query r \/ exists ec qf bf q b, o_user r = UMsg ec qf bf q b /\ q <> [] /\ p_query p = q).
Check (eq_refl : reaches_user = fun rt r =>
  exists m h, dispatched rt r = Some (m, h) /\ mw_refusal rt r = None /\ body_class h r = BOk /\
              (h_kind h = KRegistry -> q_body r <> [] /\ bmem (reg_pointer m (q_query r)) (h_fns h) = true)).
Check (eq_refl : non_notify = fun r => negb (is_notify r)).
Check (eq_refl : is_notify = fun r => q_notify r =? 1).

Print Assumptions C03_one_response.
Print Assumptions C03_one_response_each.
Print Assumptions C03_notify_silent.
Print Assumptions C03_invoked_once_iff_dispatched.
Print Assumptions C03_invocation_table.
Print Assumptions C03_response_meets_table.
Print Assumptions C03_error_code_table.
Print Assumptions C03_transports_agree.
Print Assumptions C03_ws_reader_agrees.
Print Assumptions C03_stamp_is_echo.
Print Assumptions C03_inline_order.
Print Assumptions C03_inline_lists_equal.
Print Assumptions C03_offreader_list_equal.
Print Assumptions C03_saturation_sheds.
Print Assumptions C03_offreader_panic_contained.
Print Assumptions C03_holds.

(** constants of the model are the ones re-read from the Rust source on this run *)
Theorem C03_source_tables :
  agrees src_ErrorCode_VersionMismatch Route.EC_VERSION /\ agrees src_ErrorCode_InvalidQuery Route.EC_QUERY /\
  agrees src_ErrorCode_InvalidBody Route.EC_BODY /\ agrees src_ErrorCode_ParseError Route.EC_PARSE /\
  agrees src_ErrorCode_MethodNotFound Route.EC_NOTFOUND /\ agrees src_ErrorCode_ResourceExhausted Route.EC_EXHAUSTED /\
  agrees src_ErrorCode_InternalError Route.EC_INTERNAL.
Proof. exact c03_error_codes_agree. Qed.
Check C03_source_tables :
  agrees src_ErrorCode_VersionMismatch Route.EC_VERSION /\ agrees src_ErrorCode_InvalidQuery Route.EC_QUERY /\
  agrees src_ErrorCode_InvalidBody Route.EC_BODY /\ agrees src_ErrorCode_ParseError Route.EC_PARSE /\
  agrees src_ErrorCode_MethodNotFound Route.EC_NOTFOUND /\ agrees src_ErrorCode_ResourceExhausted Route.EC_EXHAUSTED /\
  agrees src_ErrorCode_InternalError Route.EC_INTERNAL.
Print Assumptions C03_source_tables.

(** ** tie to the source text: the bodies of route, dispatch_view, dispatch and
    route_request_view of src/server_request.rs, re-translated into Gallina by
    bin/rs2v on every run (Gen/RouteGen.v) in its effect / oracle mode, are the
    model's functions: the decision chain (version, query format, UTF-8, lookup)
    with the error code of each rejection and the notify flag; "a notify gets no
    response, whatever else it is"; the handler is called exactly once iff the
    request is dispatched ([e_calls]); a handler's error becomes the error
    response with its code and text; QueryFormat::try_from (src/constants.rs, also
    re-translated) yields the variant with that discriminant.  Oracles: [utf8] for std::str::from_utf8
    (any predicate that says of this request's query what the request's oracle
    input [o_utf8] says), [call_handler] (= ONE step of the model's
    [run_handler]) for handler.handle_view / handle_with_ctx.  NOT tied: the
    *texts* of the rejection responses ([format!] and string literals are
    [TOpaque]); the second theorem instantiates them with the model's texts.  A
    function that could not be translated is [None] and its clause is [True]
    (reported by rs2v); a function whose meaning changed breaks the proof. *)
From RepeV Require Import Base.GenRoutePrelude Gen.RouteGen Proofs.RouteGenAgree Proofs.RouteTables.

Theorem C03_source_translation :
  match gen_qf_try_from with
  | Some f => forall x, f x = match qf_try_from x with Some q => ROk q | None => RErr x end
  | None => True
  end /\
  match gen_route with
  | Some f => forall utf8 rt r, utf8 (q_query r) = o_utf8 r -> f utf8 rt r (q_query r) = route_spec rt r
  | None => True
  end /\
  agrees4 gen_dispatch_view (dispatch_spec View) /\
  agrees4 gen_dispatch (dispatch_spec Owned) /\
  match gen_route_request_view with
  | Some f => forall utf8 rt r e, utf8 (q_query r) = o_utf8 r -> f utf8 rt r e = route_request_view_spec rt r e
  | None => True
  end.
Proof.
  exact (conj qf_try_from_agrees (conj route_agrees (conj dispatch_view_agrees (conj dispatch_agrees route_request_view_agrees)))).
Qed.

(** what the right-hand sides above are, in terms of the steps the theorems of
    this file are about: the inline paths are [route_request_view] followed by the
    writer's [finish]; the off-reader arm is [dispatch] with the caller's stamp and
    panic guard; the handler is called once iff the request is dispatched *)
Theorem C03_source_translation_steps :
  (forall finish rt r,
     let '(d, e) := route_request_view_spec rt r eff0 in
     inline_step finish rt r =
       mkStep (match d with
               | DRet o => option_map (fun g => finish r (resp_of (reject_text rt r) g)) o
               | DUnwind => None
               end) (e_inv e) (e_mw e)
     /\ e_calls e = match Route.route rt r with RDispatch _ _ => 1%nat | RReject _ _ => O end) /\
  (forall rt mount h r, o_sat r = false ->
     let '(d, e) := dispatch_spec Owned (rt, (mount, h)) r (is_notify r) eff0 in
     offreader_dispatch rt mount h r =
       mkStep (match d with
               | DRet o => option_map (fun g => finish_stamp r (resp_of [] g)) o
               | DUnwind => if is_notify r then None
                            else Some (finish_stamp r (err_like r EC_INTERNAL msg_panicked))
               end) (e_inv e) (e_mw e)
     /\ e_calls e = 1%nat) /\
  agrees src_QueryFormat_RawBinary QF_RAW_BINARY /\ agrees src_QueryFormat_JsonPointer QF_JSON_POINTER.
Proof.
  exact (conj inline_step_is_route_request_view (conj offreader_dispatch_is_dispatch c03_query_formats_agree)).
Qed.

Check C03_source_translation :
  match gen_qf_try_from with
  | Some f => forall x, f x = match qf_try_from x with Some q => ROk q | None => RErr x end
  | None => True
  end /\
  match gen_route with
  | Some f => forall utf8 rt r, utf8 (q_query r) = o_utf8 r -> f utf8 rt r (q_query r) = route_spec rt r
  | None => True
  end /\
  agrees4 gen_dispatch_view (dispatch_spec View) /\
  agrees4 gen_dispatch (dispatch_spec Owned) /\
  match gen_route_request_view with
  | Some f => forall utf8 rt r e, utf8 (q_query r) = o_utf8 r -> f utf8 rt r e = route_request_view_spec rt r e
  | None => True
  end.
Check C03_source_translation_steps :
  (forall finish rt r,
     let '(d, e) := route_request_view_spec rt r eff0 in
     inline_step finish rt r =
       mkStep (match d with
               | DRet o => option_map (fun g => finish r (resp_of (reject_text rt r) g)) o
               | DUnwind => None
               end) (e_inv e) (e_mw e)
     /\ e_calls e = match Route.route rt r with RDispatch _ _ => 1%nat | RReject _ _ => O end) /\
  (forall rt mount h r, o_sat r = false ->
     let '(d, e) := dispatch_spec Owned (rt, (mount, h)) r (is_notify r) eff0 in
     offreader_dispatch rt mount h r =
       mkStep (match d with
               | DRet o => option_map (fun g => finish_stamp r (resp_of [] g)) o
               | DUnwind => if is_notify r then None
                            else Some (finish_stamp r (err_like r EC_INTERNAL msg_panicked))
               end) (e_inv e) (e_mw e)
     /\ e_calls e = 1%nat) /\
  agrees src_QueryFormat_RawBinary QF_RAW_BINARY /\ agrees src_QueryFormat_JsonPointer QF_JSON_POINTER.

(** the specifications are the plain ones *)
Check (eq_refl : route_spec = fun rt r =>
  match Route.route rt r with
  | RReject c _ => ROReject (is_notify r) c TOpaque
  | RDispatch m h => RODispatch (rt, (m, h)) (is_notify r) (q_query r)
  end).
Check (eq_refl : dispatch_spec = fun m bh r notify e =>
  let '(c, e') := call_handler m bh r e in
  match c with
  | HPanicked => (DUnwind, e')
  | HReturned v =>
      (DRet (if notify then None
             else Some (match v with
                        | ROk p => p
                        | RErr x => GError m r (re_code x) (TText (re_text x))
                        end)), e')
  end).
Check (eq_refl : route_request_view_spec = fun rt r e =>
  match Route.route rt r with
  | RReject c _ => (DRet (if is_notify r then None else Some (GError View r c TOpaque)), e)
  | RDispatch m h => dispatch_spec View (rt, (m, h)) r (is_notify r) e
  end).
Check (eq_refl : resp_of = fun txt g =>
  match g with
  | GHandler p => p
  | GError m r c t => err_resp m r c (match t with TOpaque => txt | TText s => s end)
  end).
Check (eq_refl : qf_try_from = fun x =>
  if x =? QF_RAW_BINARY then Some QFRawBinary else if x =? QF_JSON_POINTER then Some QFJsonPointer else None).
Check (eq_refl : reject_text = fun rt r =>
  match Route.route rt r with RReject _ msg => msg | RDispatch _ _ => [] end).

Print Assumptions C03_source_translation.
Print Assumptions C03_source_translation_steps.
